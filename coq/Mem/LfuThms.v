From Coq Require Import List NArith Lia.
From FV Require Import Mem.Shard Mem.ShardLemmas Mem.Algo Mem.AlgoThms.
Import ListNotations.
Open Scope N_scope.

(* [AlgoThms.wsum] again: the name under which c14_lfu_window_overflow speaks of it *)
Definition wsum (l : list ent) : N := fold_right (fun e a => ew e + a) 0 l.

Lemma wsum_app a b : wsum (a ++ b) = wsum a + wsum b.
Proof. exact (AlgoThms.wsum_app a b). Qed.

Section Lfu.
  Variable bucket : N -> list nat.

  Theorem lfu_pop_none s :
    lfu_pop bucket s = None <-> f_window s = [] /\ f_probation s = [] /\ f_protected s = [].
  Proof.
    unfold lfu_pop. split.
    - destruct (f_window s) as [|ew0 w'], (f_probation s) as [|ep p']; try discriminate.
      + destruct (f_protected s); [auto|discriminate].
      + destruct (_ <? _); discriminate.
    - intros (Hw & Hp & Ht). rewrite Hw, Hp, Ht. reflexivity.
  Qed.

  Theorem lfu_victim_rule s e s' :
    lfu_pop bucket s = Some (e, s') ->
    match f_window s, f_probation s with
    | ewin :: _, epro :: _ =>
        (lfu_freq bucket s (eh ewin) < lfu_freq bucket s (eh epro) -> e = ewin /\ f_probation s' = f_probation s) /\
        (lfu_freq bucket s (eh epro) <= lfu_freq bucket s (eh ewin) -> e = epro /\ f_window s' = f_window s)
    | ewin :: _, [] => e = ewin
    | [], epro :: _ => e = epro
    | [], [] => exists t', f_protected s = e :: t'
    end /\ (f_window s <> [] \/ f_probation s <> [] -> f_protected s' = f_protected s).
  Proof.
    unfold lfu_pop.
    destruct (f_window s) as [|ewin w'], (f_probation s) as [|epro p'].
    - destruct (f_protected s) as [|e0 t']; [discriminate|]. intros [= <- <-]. split; [eauto|]. intros [F|F]; congruence.
    - intros [= <- <-]. auto.
    - intros [= <- <-]. auto.
    - destruct (N.ltb_spec (lfu_freq bucket s (eh ewin)) (lfu_freq bucket s (eh epro))) as [C|C]; intros [= <- <-];
        cbn [lfu_set f_window f_probation f_protected].
      + split; [|auto]. split; [auto|intros Hle; lia].
      + split; [|auto]. split; [intros Hlt; lia|auto].
  Qed.

  (* the window's overflow loop is LRU's [lru_overflow] with a second account, which receives what the first gives up *)
  Lemma lfu_win_overflow_lru : forall w p ww pw cap w' p' ww' pw',
    lfu_win_overflow w p ww pw cap = (w', p', ww', pw') ->
    lru_overflow w p ww cap = (w', p', ww') /\ pw' + wsum w' = pw + wsum w.
  Proof.
    induction w as [|e w IH]; intros p ww pw cap w' p' ww' pw'; cbn [lfu_win_overflow lru_overflow];
      destruct (ww <=? cap); try (intros [= <- <- <- <-]; auto).
    intros H. apply IH in H. destruct H as [H1 H2]. split; [exact H1|]. change (wsum (e :: w)) with (ew e + wsum w). lia.
  Qed.

  Theorem lfu_win_overflow_rule : forall w p ww pw cap w' p' ww' pw',
    lfu_win_overflow w p ww pw cap = (w', p', ww', pw') -> ww = wsum w ->
    p' ++ w' = p ++ w /\ (exists moved, p' = p ++ moved /\ w = moved ++ w') /\
    ww' = wsum w' /\ pw' = pw + (wsum w - wsum w') /\ (ww' <= cap \/ w' = []).
  Proof.
    intros w p ww pw cap w' p' ww' pw' H Hww. apply lfu_win_overflow_lru in H. destruct H as [H Hpw].
    destruct (lru_overflow_spec Hww H) as (Hs & Hc & moved & Hw & Hp).
    change AlgoThms.wsum with wsum in Hs. pose proof (wsum_app moved w') as Hm. rewrite <- Hw in Hm.
    split; [rewrite Hp, Hw, app_assoc; reflexivity|]. split; [eauto|]. split; [exact Hs|]. split; [lia|auto].
  Qed.
End Lfu.

(* [ShardLemmas.nth_upd_same] for a row of the sketch *)
Lemma nth_upd_same (b : nat) (f : N -> N) (r : list N) : (b < length r)%nat -> nth b (upd b f r) 0 = f (nth b r 0).
Proof. apply ShardLemmas.nth_upd_same. Qed.

Lemma nth_upd_ge (b b' : nat) (r : list N) : nth b' r 0 <= nth b' (upd b (fun n => n + 1) r) 0.
Proof.
  revert b b'. induction r as [|x r IH]; intros [|b] [|b']; cbn; try lia; auto.
Qed.

Lemma sk_estimate_mono_acc rows bs a a' : a <= a' -> sk_estimate rows bs a <= sk_estimate rows bs a'.
Proof.
  revert bs a a'. induction rows as [|r rows IH]; intros [|b bs] a a' H; cbn [sk_estimate]; auto.
  apply IH. lia.
Qed.

Theorem sk_update_never_lowers rows bs bs' acc :
  sk_estimate rows bs' acc <= sk_estimate (sk_update rows bs) bs' acc.
Proof.
  revert bs bs' acc. induction rows as [|r rows IH]; intros [|b bs] [|b' bs'] acc; cbn [sk_update sk_estimate]; try lia.
  etransitivity; [apply IH|]. apply sk_estimate_mono_acc.
  pose proof (nth_upd_ge b b' r). lia.
Qed.

Lemma sk_estimate_min rows bs a c : sk_estimate rows bs (N.min a c) = N.min (sk_estimate rows bs a) c.
Proof.
  revert bs a. induction rows as [|r rows IH]; intros [|b bs] a; cbn [sk_estimate]; auto.
  rewrite <- IH. f_equal. lia.
Qed.

Lemma sk_estimate_succ rows bs a :
  Forall2 (fun r b => (b < length r)%nat) rows bs ->
  sk_estimate (sk_update rows bs) bs (a + 1) = sk_estimate rows bs a + 1.
Proof.
  intros H. revert a. induction H as [|r b rows bs Hb Hr IH]; intros a; cbn [sk_update sk_estimate]; [reflexivity|].
  rewrite nth_upd_same by assumption. rewrite N.add_min_distr_r. apply IH.
Qed.

Theorem sk_update_counts_one rows bs cap :
  Forall2 (fun r b => (b < length r)%nat) rows bs ->
  sk_estimate (sk_update rows bs) bs cap = N.min cap (sk_estimate rows bs cap + 1).
Proof.
  intros H.
  assert (E : cap = N.min (cap + 1) cap) by lia.
  rewrite E at 1. rewrite sk_estimate_min. rewrite (sk_estimate_succ _ _ _ H). lia.
Qed.

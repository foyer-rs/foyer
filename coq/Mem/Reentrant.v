(* C16: user callbacks run outside the shard lock, so calling back into the cache cannot self-deadlock.
   A call of the cache API is modelled by its phases (foyer-memory/src/raw.rs): the weighter and the filter are
   evaluated BEFORE the shard lock is taken; the critical section only collects the records that leave the cache into
   a garbage vector; after the guard is dropped the listener is told and the records are released (key / value
   destructors).  Any of these callbacks may call the cache again - a call tree.  The shard lock is not re-entrant:
   taking it while this thread holds it never returns. *)
From Coq Require Import List.
Import ListNotations.

Inductive call := Call (pre post : list call).    (* the calls made by the callbacks before / after the critical section *)

(* [exec inside c held]: run call [c] on a thread that currently holds the shard lock iff [held];
   None = the thread blocks forever; Some h = it returns, holding the lock iff h.
   [inside = true] is the wrong discipline: callbacks invoked inside the critical section. *)
Fixpoint exec (inside : bool) (c : call) (held : bool) : option bool :=
  match c with
  | Call pre post =>
      let fix go (l : list call) (h : bool) : option bool :=
        match l with
        | [] => Some h
        | x :: l' => match exec inside x h with Some h' => go l' h' | None => None end
        end in
      if inside then
        if held then None else
        match go pre true with
        | Some _ => match go post true with Some _ => Some false | None => None end
        | None => None
        end
      else
        match go pre held with
        | Some true => None                 (* lock() while held *)
        | Some false => go post false       (* lock; critical section; unlock; then the callbacks *)
        | None => None
        end
  end.

Fixpoint call_ind' (P : call -> Prop)
    (H : forall pre post, Forall P pre -> Forall P post -> P (Call pre post)) (c : call) : P c :=
  match c with
  | Call pre post =>
      let fix all (l : list call) : Forall P l :=
        match l with [] => Forall_nil P | x :: l' => Forall_cons x (call_ind' P H x) (all l') end in
      H pre post (all pre) (all post)
  end.

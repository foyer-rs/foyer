From Coq Require Import List NArith Arith Lia.
From FV Require Import Base.ListX Mem.Shard Mem.ShardLemmas Mem.ShardSteps.
Import ListNotations.
Open Scope N_scope.

Record IdxInv (s : shard) : Prop := {
  ii_keys : NoDup (map fst (idx s));
  ii_ids : NoDup (map snd (idx s));
  ii_ok : forall k i, In (k, i) (idx s) ->
          (i < length (arena s))%nat /\ rkey (get_rec s i) = k /\ rphantom (get_rec s i) = false;
  ii_usage : usage s = sumw (arena s) (idx s);
  ii_entries : entries s = N.of_nat (length (idx s)) }.

Lemma IdxInv_frame s s' :
  arena s' = arena s -> idx s' = idx s -> usage s' = usage s -> entries s' = entries s -> IdxInv s -> IdxInv s'.
Proof.
  intros Ha Hi Hu He [H1 H2 H3 H4 H5].
  constructor; unfold get_rec in *; rewrite ?Ha, ?Hi, ?Hu, ?He; auto.
Qed.

Lemma IdxInv_init cap : IdxInv (init_shard cap).
Proof. constructor; simpl; try constructor; try tauto; reflexivity. Qed.

Lemma IdxInv_lookup s k i : IdxInv s -> lookup k (idx s) = Some i ->
  (i < length (arena s))%nat /\ rkey (get_rec s i) = k /\ rphantom (get_rec s i) = false.
Proof. intros HI Hl. apply (ii_ok s HI), lookup_In, Hl. Qed.

Lemma IdxInv_indexed s i : IdxInv s -> (In i (map snd (idx s)) <-> lookup (rkey (get_rec s i)) (idx s) = Some i).
Proof.
  intros HI. split.
  - intros Hin. apply in_map_iff in Hin. destruct Hin as [[k j] [E Hin]]. simpl in E; subst j.
    rewrite (proj1 (proj2 (ii_ok s HI k i Hin))). apply In_lookup; [apply (ii_keys s HI)|exact Hin].
  - intros Hl. apply (in_map snd _ _ (lookup_In _ _ _ Hl)).
Qed.

Lemma IdxInv_in_arena s i : IdxInv s -> In i (map snd (idx s)) -> (i < length (arena s))%nat.
Proof. intros HI Hin. apply (IdxInv_indexed s i HI) in Hin. apply (IdxInv_lookup s _ i HI Hin). Qed.

Lemma phantom_not_indexed s i :
  IdxInv s -> rphantom (get_rec s i) = true -> ~ In i (map snd (idx s)).
Proof.
  intros HI Hp Hin. apply (IdxInv_indexed s i HI) in Hin. destruct (IdxInv_lookup s _ i HI Hin) as (_ & _ & Hn). congruence.
Qed.

Lemma IdxInv_leave c s k i e : IdxInv s -> lookup k (idx s) = Some i -> IdxInv (leave c s k i e).
Proof.
  intros [H1 H2 H3 H4 H5] Hl.
  constructor; sproj; unfold weight_of, get_rec in *; sproj.
  - apply remove_key_nodup; assumption.
  - apply remove_key_nodup; assumption.
  - intros k' i' Hin. apply remove_key_In in Hin. apply H3, Hin.
  - rewrite H4, (sumw_remove_key (arena s) k (idx s) i H1 Hl). lia.
  - rewrite H5. pose proof (remove_key_length k (idx s) i H1 Hl). lia.
Qed.

Lemma IdxInv_alloc s r : IdxInv s -> IdxInv (alloc s r).
Proof.
  intros [H1 H2 H3 H4 H5]. constructor; sproj; auto.
  - intros k i Hin. destruct (H3 k i Hin) as [Hlt HH].
    unfold get_rec in *; sproj. rewrite app_length, app_nth1 by assumption. split; [lia|exact HH].
  - rewrite H4. symmetry. apply sumw_arena_app. intros [k i] Hin. apply (H3 k i Hin).
Qed.

Lemma IdxInv_evict_one c s k i :
  IdxInv s -> lookup k (idx s) = Some i -> IdxInv (evict_one c s k i).
Proof. intros HI Hl. rewrite evict_one_eq. apply IdxInv_leave; assumption. Qed.

Lemma IdxInv_evs c s s' : evs c s s' -> IdxInv s -> IdxInv s'.
Proof. induction 1; auto using IdxInv_evict_one. Qed.

(* not used here: the proofs rewrite with [evict_one_eq], of which this is the [usage] field *)
Lemma evict_one_usage c s k i : usage (evict_one c s k i) = usage s - weight_of s i.
Proof. rewrite evict_one_eq. reflexivity. Qed.

(* the eviction loop of [insert] runs after the allocation but does not look at the new record *)
Lemma evs_alloc c r se : forall s, IdxInv s -> evs c (alloc s r) se -> exists s1, evs c s s1 /\ se = alloc s1 r.
Proof.
  intros s HI H. remember (alloc s r) as sa eqn:E. revert s HI E.
  induction H as [sa|sa k i se Hl _ IH]; intros s HI ->.
  - exists s. split; [constructor|reflexivity].
  - sproj. destruct (IH (evict_one c s k i)) as (s1 & H1 & ->).
    + apply IdxInv_evict_one; assumption.
    + rewrite !evict_one_eq. unfold leave, alloc, weight_of, get_rec; sproj.
      rewrite app_nth1 by apply (IdxInv_lookup s k i HI Hl). reflexivity.
    + exists s1. split; [econstructor; eauto|reflexivity].
Qed.

Lemma insert_phases c s k v w hsh low ph h vs s' :
  IdxInv s -> insert c s k v w hsh low ph h vs = Some s' ->
  exists s1, evs c s s1 /\ s' = admitted (replaced s1 k) (mkRec k v w hsh ph low) h.
Proof.
  intros HI H. apply insert_spec in H. destruct H as (se & _ & He & ->).
  destruct (evs_alloc _ _ _ _ HI He) as (s1 & H1 & ->). exists s1. split; [exact H1|].
  pose proof (IdxInv_evs _ _ _ H1 HI) as HI1. rewrite <- (evs_arena _ _ _ H1).
  unfold inserted, admitted, replaced, weight_of, get_rec. sproj.
  (* with an old record [o]: its weight is read in the arena before the allocation ([app_nth1]), and the entry count
     goes down and up again ([He1]: it was positive) *)
  destruct (lookup k (idx s1)) as [o|] eqn:Hl.
  - assert (He1 : entries s1 - 1 + 1 = entries s1).
    { rewrite (ii_entries s1 HI1). pose proof (remove_key_length k (idx s1) o (ii_keys s1 HI1) Hl). lia. }
    destruct ph; apply shard_ext; sproj; cbn [app];
      rewrite ?app_nth1 by apply (IdxInv_lookup s1 k o HI1 Hl); rewrite ?N.add_0_r, ?app_nil_r, <- ?app_assoc, ?He1;
      reflexivity.
  - destruct ph; apply shard_ext; sproj; cbn [app];
      rewrite ?(remove_key_none _ _ Hl), ?N.add_0_r, ?app_nil_r; reflexivity.
Qed.

Lemma IdxInv_admitted s r h : IdxInv s -> lookup (rkey r) (idx s) = None -> IdxInv (admitted s r h).
Proof.
  intros HI Hk. pose proof (IdxInv_alloc s r HI) as HA. unfold admitted. destruct (rphantom r) eqn:Eph.
  - eapply IdxInv_frame; [..|exact HA]; reflexivity.
  - destruct HA as [H1 H2 H3 H4 H5].
    constructor; unfold get_rec in *; sproj; cbn [map fst snd sumw fold_right length].
    + constructor; [apply lookup_None|]; assumption.
    + constructor; [|assumption]. intros Hin. apply (IdxInv_in_arena s _ HI) in Hin. lia.
    + intros k' i' [[= <- <-]|Hin]; [|auto]. rewrite app_length, nth_middle. simpl. split; [lia|auto].
    + fold (sumw (arena s ++ [r]) (idx s)). rewrite H4, nth_middle. lia.
    + rewrite H5. lia.
Qed.

Lemma IdxInv_trans c s s' : trans c s s' -> IdxInv s -> IdxInv s'.
Proof.
  intros T HI. destruct T as [s r h Hk|s h i _|s i _|s k i e Hl|s cap|s h].
  - (* admit *) apply IdxInv_admitted; assumption.
  - (* hold *) eapply IdxInv_frame; [..|exact HI]; reflexivity.
  - (* pin *) rewrite acquire_eq. eapply IdxInv_frame; [..|exact HI]; reflexivity.
  - (* leave *) apply IdxInv_leave; assumption.
  - (* set_capacity *) eapply IdxInv_frame; [..|exact HI]; reflexivity.
  - (* drop *) destruct (drop_frame c s h) as (A & B & C & D). exact (IdxInv_frame s _ A B C D HI).
Qed.

(* by induction on the index: when the first record has left, clearing the rest gives the same state *)
Lemma clear_inv c (P : shard -> Prop) :
  bug_clear c = false -> (forall s, P s -> IdxInv s) ->
  (forall s k i, lookup k (idx s) = Some i -> P s -> P (leave c s k i EvClear)) ->
  forall s, P s -> P (clear c s).
Proof.
  intros Hc HI HL. enough (H : forall l s, idx s = l -> P s -> P (clear c s)) by (intros s; apply (H (idx s) s eq_refl)).
  induction l as [|[k i] l IH]; intros s E HP; pose proof (HI s HP) as [H1 _ _ H4 H5]; rewrite E in *.
  - replace (clear c s) with s; [exact HP|]. rewrite clear_eq, Hc, E. apply shard_ext; sproj; auto. symmetry. apply app_nil_r.
  - inversion H1 as [|? ? Hnot _]; subst.
    assert (Hl : lookup k (idx s) = Some i) by (rewrite E; cbn; rewrite N.eqb_refl; reflexivity).
    assert (E1 : idx (leave c s k i EvClear) = l).
    { sproj. rewrite E. cbn. rewrite N.eqb_refl. apply remove_key_none, lookup_None, Hnot. }
    replace (clear c s) with (clear c (leave c s k i EvClear)); [exact (IH _ E1 (HL s k i Hl HP))|].
    rewrite !clear_eq, E1, E, Hc. sproj. cbn [map snd]. rewrite <- app_assoc. reflexivity.
Qed.

(* [insert_phases] and [clear_inv] are why [P] has to carry [IdxInv] *)
Lemma step_inv c (P : shard -> Prop) :
  bug_clear c = false -> bug_touch c = false -> (forall s, P s -> IdxInv s) -> (forall s s', trans c s s' -> P s -> P s') ->
  forall s o s', P s -> step c s o = Some s' -> P s'.
Proof.
  intros Hc Ht HI HT.
  assert (Hevs : forall s s', evs c s s' -> P s -> P s').
  { induction 1 as [|s k i s' Hl _ IH]; [auto|]. intros HP. eapply IH, HT, HP. rewrite evict_one_eq. constructor. exact Hl. }
  assert (Hget : forall s k h, P s -> P (get c s k h)).
  { intros s k h HP. unfold get. destruct (lookup k (idx s)) as [i|] eqn:Hl; [|exact HP].
    replace (add_handle _ h i) with (acquire c (add_handle (inc_ref s i) h i) i) by (rewrite !acquire_eq; reflexivity).
    eapply HT; [apply t_pin; sproj; rewrite hcount_cons, Nat.eqb_refl; lia|].
    eapply HT, HP. apply t_hold. eauto. }
  intros s o s' HP. destruct o; simpl; try solve [intros [= <-]; eauto using trans].
  - (* insert *) intros H. destruct (insert_phases _ _ _ _ _ _ _ _ _ _ _ (HI s HP) H) as (s1 & He & ->).
    eapply HT; [apply t_admit, replaced_lookup|]. apply (Hevs _ _ He) in HP.
    unfold replaced. destruct (lookup k (idx s1)) as [o|] eqn:Hl; [|exact HP]. exact (HT _ _ (t_leave c s1 k o EvReplace Hl) HP).
  - (* touch *) intros [= <-]. rewrite touch_repaired by assumption. eauto using trans.
  - (* remove *) intros [= <-]. unfold remove. destruct (lookup k (idx s)) as [i|] eqn:Hl; [|exact HP].
    change (P (leave c (add_handle (inc_ref s i) h i) k i EvRemove)).
    eapply HT; [apply t_leave, Hl|]. eapply HT, HP. apply t_hold. eauto.
  - (* clear *) intros [= <-]. apply (clear_inv c P Hc HI); [|exact HP]. intros x k i Hl. apply HT, t_leave, Hl.
  - (* resize *) intros H. apply evict_oracle_evs in H. eauto using trans.
  - (* evict_all *) intros H. apply evict_oracle_evs in H. eauto.
  - (* flush *) intros H. apply flush_oracle_evs in H. destruct H. eauto.
  - (* clone *) intros [= <-]. unfold clone. destruct (hlookup h (handles s)) as [i|] eqn:Hl; [|exact HP].
    eapply HT, HP. apply t_hold. eauto.
Qed.

(* for the flush theorem below (C15), which needs no more than [IdxInv]; the rest goes by [Inv_step] (ShardThms.v) and
   [EvInv_run] (ShardEvents.v) *)
Lemma IdxInv_run c ops : forall s s',
  bug_clear c = false -> bug_touch c = false -> IdxInv s -> run c s ops = Some s' -> IdxInv s'.
Proof. intros s s' Hc Ht. apply run_inv, step_inv; [assumption|assumption|auto|]. intros *. apply IdxInv_trans. Qed.

Lemma evs_logs_grow c s s' : evs c s s' -> incl (elog s) (elog s') /\ incl (plog s) (plog s').
Proof.
  induction 1 as [s|s k i s' _ _ [A B]]; [split; apply incl_refl|]. snorm.
  split; [eapply incl_tran, A; apply incl_appl, incl_refl|eapply incl_tran, B].
  destruct (piped c); [apply incl_appl|]; apply incl_refl.
Qed.

Lemma evs_evicted c s s' : evs c s s' -> IdxInv s -> forall k i, In (k, i) (idx s) ->
  In (k, i) (idx s') \/ (In (EvEvict, i) (elog s') /\ (piped c = true -> In i (plog s'))).
Proof.
  induction 1 as [s|s k i s' Hl He IH]; intros HI k0 i0 Hin; [left; exact Hin|].
  destruct (N.eq_dec k0 k) as [->|Hne].
  - right. rewrite (In_lookup _ _ _ (ii_keys s HI) Hin) in Hl. injection Hl as ->.
    destruct (evs_logs_grow _ _ _ He) as [A B]. snorm. split.
    + apply A, in_or_app. right; left; reflexivity.
    + intros Hp. apply B. rewrite Hp. apply in_or_app. right; left; reflexivity.
  - apply IH; [apply IdxInv_evict_one; assumption|]. snorm. apply remove_key_In. auto.
Qed.

(* RawCache::flush, the offload at HybridCache::close (C15).  "Resident" includes the referenced and the zero-weight
   records, which evict_all, standing in its place, left behind: F19, Props/C15.v. *)
Theorem flush_takes_everything c vs : forall s s',
  IdxInv s -> flush_oracle c vs s = Some s' ->
  idx s' = [] /\
  forall k i, In (k, i) (idx s) -> In (EvEvict, i) (elog s') /\ (piped c = true -> In i (plog s')).
Proof.
  intros s s' HI H. apply flush_oracle_evs in H. destruct H as [He E]. split; [exact E|].
  intros k i Hin. destruct (evs_evicted _ _ _ He HI k i Hin) as [Hin'|]; [|assumption].
  rewrite E in Hin'. destruct Hin'.
Qed.

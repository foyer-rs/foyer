(* The sequential shard, seen through one key, meets C02's specification (Linear.v).  That the real operations are
   atomic is not proved: [Linear.atomic_points_linearizable] is the bridge, the concurrent runs test the premise. *)
From Coq Require Import List NArith.
From FV Require Import Base.ListX Mem.Shard Mem.ShardLemmas Mem.ShardSteps Mem.ShardInv Mem.ShardRefs Mem.ShardThms Mem.Linear.
Import ListNotations.
Open Scope N_scope.

Definition cur (s : shard) (k : N) : option N :=
  match lookup k (idx s) with Some i => Some (rval (get_rec s i)) | None => None end.

(* a phantom insert replaces the old record and indexes nothing: a delete.  Touch, contains and the eviction operations
   have no event: what they do to [k] is covered by the disjunct [cur s' k = None] of [step_register] *)
Definition kind_of (s : shard) (o : op) (k : N) : option kind :=
  match o with
  | OInsert k' v _ _ _ ph _ _ => if k' =? k then Some (if ph then KDelete else KWrite v) else None
  | OGet k' _ => if k' =? k then Some (KRead (cur s k)) else None
  | ORemove k' _ => if k' =? k then Some KDelete else None
  | OClear => Some KDelete
  | _ => None
  end.

(* ids and stamps make the history sequential; nothing below depends on them *)
Fixpoint trace (c : cfg) (s : shard) (ops : list op) (k : N) (n : N) : option (list ev) :=
  match ops with
  | [] => Some []
  | o :: ops' =>
      match step c s o with
      | None => None
      | Some s' =>
          match trace c s' ops' k (n + 1) with
          | None => None
          | Some l => Some (match kind_of s o k with Some kd => mkEv n kd (2 * n) (2 * n + 1) :: l | None => l end)
          end
      end
  end.

Lemma remove_lookup c s k' h k :
  lookup k (idx (remove c s k' h)) = if k' =? k then None else lookup k (idx s).
Proof.
  unfold remove. destruct (lookup k' (idx s)) as [i|] eqn:Hl; sproj; [apply lookup_remove_key|].
  destruct (N.eqb_spec k' k) as [->|Hne]; auto.
Qed.

Lemma kind_of_read s o k r : kind_of s o k = Some (KRead r) -> r = cur s k.
Proof.
  destruct o; simpl; try discriminate; destruct (_ =? k); try discriminate; [destruct ph; discriminate|congruence].
Qed.

(* the disjunct [cur s k = None]: an eviction makes the shard miss while the register keeps its value - the "misses" of
   the specification *)
Lemma step_register c s o s' k st :
  good c -> Inv c s -> step c s o = Some s' ->
  (cur s k = None \/ cur s k = st) ->
  cur s' k = None \/ cur s' k = match kind_of s o k with Some kd => apply st (mkEv 0 kd 0 0) | None => st end.
Proof.
  intros [Hgc Hgt] HI Hs Hc.
  assert (Hkeep : lookup k (idx s') = lookup k (idx s) \/ lookup k (idx s') = None -> cur s' k = None \/ cur s' k = st).
  { unfold cur in *. intros [E|E]; rewrite E; [|auto]. destruct (lookup k (idx s)) as [i|] eqn:Hl; [|auto].
    rewrite (step_record_stable _ _ _ _ i Hs); [exact Hc|]. apply (IdxInv_lookup s k i (inv_idx c s HI) Hl). }
  destruct o as [k' v w hsh low ph h vs|k' h|k' h|k'|k' h| |cap vs|vs|vs|h h'|h]; cbn [step kind_of] in *;
    try (injection Hs as <-).
  - (* insert *) destruct (insert_spec _ _ _ _ _ _ _ _ _ _ _ Hs) as (se & _ & He & ->).
    pose proof (inserted_lookup se (length (arena s)) k' w ph h k) as El.
    destruct (N.eqb_spec k' k) as [->|Hne].
    + unfold cur. rewrite El. destruct ph; [left; reflexivity|right].
      unfold inserted, get_rec; sproj. rewrite (evs_arena _ _ _ He); sproj. rewrite nth_middle. reflexivity.
    + apply Hkeep. rewrite El. apply (evs_lookup c _ _ k He).
  - (* get *) destruct (get_frame c s k' h) as (_ & E & _). destruct (k' =? k); apply Hkeep; left; rewrite E; reflexivity.
  - (* touch *) rewrite touch_repaired in * by assumption. destruct (drop_frame c (get c s k' h) h) as (_ & E & _).
    destruct (get_frame c s k' h) as (_ & E' & _). apply Hkeep. left. congruence.
  - (* contains *) apply Hkeep; auto.
  - (* remove *) destruct (N.eqb_spec k' k) as [->|Hne].
    + left. unfold cur. rewrite remove_lookup, N.eqb_refl. reflexivity.
    + apply Hkeep. left. rewrite remove_lookup. destruct (N.eqb_spec k' k); [congruence|reflexivity].
  - (* clear *) left. unfold cur. rewrite clear_eq. reflexivity.
  - (* resize *) apply Hkeep, (evs_lookup c (set_capacity s cap)), (evict_oracle_evs _ _ _ _ _ Hs).
  - (* evict_all *) apply Hkeep, (evs_lookup c), (evict_oracle_evs _ _ _ _ _ Hs).
  - (* flush *) apply Hkeep. right. apply flush_oracle_evs in Hs. destruct Hs as [_ ->]. reflexivity.
  - (* clone *) apply Hkeep. left. unfold clone. destruct (hlookup h (handles s)); reflexivity.
  - (* drop *) apply Hkeep. left. destruct (drop_frame c s h) as (_ & -> & _). reflexivity.
Qed.

Theorem shard_follows_register c k : good c -> forall ops s st n l,
  Inv c s -> (cur s k = None \/ cur s k = st) -> trace c s ops k n = Some l -> seq_ok st l.
Proof.
  intros Hg. induction ops as [|o ops IH]; intros s st n l HI Hc Ht; cbn [trace] in Ht.
  - inversion Ht; subst. exact I.
  - destruct (step c s o) as [s'|] eqn:Hs; [|discriminate].
    destruct (trace c s' ops k (n + 1)) as [l'|] eqn:Ht'; [|discriminate].
    inversion Ht; subst. clear Ht.
    assert (HI' : Inv c s') by (eapply Inv_step; eauto).
    pose proof (step_register c s o s' k st Hg HI Hs Hc) as Hc'.
    destruct (kind_of s o k) as [kd|] eqn:Hk.
    + cbn [seq_ok]. split.
      * (* a lookup returns nothing or the register's value *)
        unfold legal. cbn [ekind]. destruct kd as [v| |[v|]]; auto.
        apply kind_of_read in Hk. rewrite <- Hk in Hc. destruct Hc as [Hc|Hc]; [discriminate|auto].
      * eapply IH; [exact HI'|exact Hc'|exact Ht'].
    + eapply IH; eauto.
Qed.

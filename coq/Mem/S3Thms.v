From Coq Require Import List NArith Lia.
From FV Require Import Mem.Algo.
Import ListNotations.
Open Scope N_scope.

Fixpoint wsum2 (l : list (ent * N)) : N := match l with [] => 0 | p :: l' => ew (fst p) + wsum2 l' end.
Lemma wsum2_app l l' : wsum2 (l ++ l') = wsum2 l + wsum2 l'.
Proof. induction l as [|x l IH]; cbn [app wsum2]; lia. Qed.

(* the loop over promoted records, for a state written as [s3_with_queues]: the loop overwrites exactly these fields *)
Lemma evict_small_run pre : forall s rest m sw mw,
  Forall (fun p => s_thr s <= snd p) pre ->
  s3_evict_small (pre ++ rest) (s3_with_queues s (pre ++ rest) m sw mw) =
  s3_evict_small rest (s3_with_queues s rest (m ++ pre) (sw - wsum2 pre) (mw + wsum2 pre)).
Proof.
  induction pre as [|[e0 f0] pre IH]; intros s rest m sw mw Hall; cbn [app wsum2 fst].
  - rewrite app_nil_r, N.sub_0_r, N.add_0_r. reflexivity.
  - inversion Hall as [|? ? H0 Hall']; subst. cbn [s3_evict_small]. change (s_thr (s3_with_queues _ _ _ _ _)) with (s_thr s).
    destruct (N.leb_spec (s_thr s) f0) as [_|Habs]; [|cbn [snd] in H0; lia].
    rewrite IH by exact Hall'. unfold s3_with_queues. cbn [s_main s_sw s_mw s_gq s_gset s_gcap s_gw s_scap s_thr].
    rewrite <- app_assoc, N.sub_add_distr, N.add_assoc. reflexivity.
Qed.

(* ... and any state may be written so, as the small queue it holds is not read *)
Lemma evict_small_norm small s : small <> [] ->
  s3_evict_small small s = s3_evict_small small (s3_with_queues s small (s_main s) (s_sw s) (s_mw s)).
Proof. destruct small as [|[e f] small]; [congruence|reflexivity]. Qed.

Theorem evict_small_promotes pre : forall s e f post,
  Forall (fun p => s_thr s <= snd p) pre -> f < s_thr s ->
  s3_evict_small (pre ++ (e, f) :: post) s =
    (Some e, ghost_push (s3_with_queues s post (s_main s ++ pre) (s_sw s - wsum2 pre - ew e) (s_mw s + wsum2 pre)) (eh e) (ew e)).
Proof.
  intros s e f post Hall Hf. rewrite evict_small_norm by (destruct pre; discriminate).
  rewrite evict_small_run by exact Hall. cbn [s3_evict_small]. change (s_thr (s3_with_queues _ _ _ _ _)) with (s_thr s).
  destruct (N.leb_spec (s_thr s) f); [lia|reflexivity].
Qed.

(* [\/ small = []]: on the empty queue the loop returns [s] itself, which is the term on the left only if [s_small s = []] *)
Theorem evict_small_all_promoted small : forall s,
  Forall (fun p => s_thr s <= snd p) small ->
  s3_evict_small small s = (None, s3_with_queues s [] (s_main s ++ small) (s_sw s - wsum2 small) (s_mw s + wsum2 small))
  \/ small = [].
Proof.
  intros s Hall. destruct small as [|x small]; [right; reflexivity|left].
  rewrite evict_small_norm by discriminate. rewrite <- (app_nil_r (x :: small)) at 1 2.
  rewrite evict_small_run by exact Hall. reflexivity.
Qed.

Definition dec (p : ent * N) : ent * N := (fst p, snd p - 1).

Theorem evict_main_second_chance pre : forall fuel s e post,
  s_main s = pre ++ (e, 0) :: post -> Forall (fun p => 0 < snd p) pre -> (length pre < fuel)%nat ->
  s3_evict_main fuel s = Some (e, s3_with_queues s (s_small s) (post ++ map dec pre) (s_sw s) (s_mw s - ew e)).
Proof.
  induction pre as [|[e0 f0] pre IH]; intros fuel s e post Hm Hall Hf; (destruct fuel as [|fuel]; [cbn [length] in Hf; lia|]);
    cbn [s3_evict_main]; rewrite Hm; cbn [app].
  - destruct (N.ltb_spec 0 0) as [Habs|_]; [lia|]. cbn [map]. rewrite app_nil_r. reflexivity.
  - inversion Hall as [|? ? H0 Hall']; subst. cbn [snd] in H0.
    destruct (N.ltb_spec 0 f0) as [_|Habs]; [|lia].
    rewrite (IH fuel _ e (post ++ [(e0, f0 - 1)])).
    + unfold s3_with_queues. cbn [s_small s_main s_sw s_mw s_gq s_gset s_gcap s_gw s_scap s_thr map dec fst snd].
      rewrite <- app_assoc. reflexivity.
    + unfold s3_with_queues. cbn [s_main]. rewrite <- app_assoc. reflexivity.
    + exact Hall'.
    + cbn [length] in Hf. lia.
Qed.

Fixpoint fsum (l : list (ent * N)) : N := match l with [] => 0 | p :: l' => snd p + fsum l' end.
Lemma fsum_app l l' : fsum (l ++ l') = fsum l + fsum l'.
Proof. induction l as [|x l IH]; cbn [app fsum]; lia. Qed.

(* the scan ends: each round either evicts or takes one unit of frequency away *)
Theorem evict_main_ends : forall fuel s,
  s_main s <> [] -> (N.to_nat (fsum (s_main s)) < fuel)%nat -> exists e s', s3_evict_main fuel s = Some (e, s').
Proof.
  induction fuel as [|fuel IH]; intros s Hne Hf; [lia|]. cbn [s3_evict_main].
  destruct (s_main s) as [|[e f] main'] eqn:Hm; [congruence|].
  destruct (N.ltb_spec 0 f) as [Hpos|_]; [|eauto].
  apply IH.
  - unfold s3_with_queues. cbn [s_main]. destruct main'; discriminate.
  - unfold s3_with_queues. cbn [s_main]. rewrite fsum_app. cbn [fsum snd] in *. lia.
Qed.

(* S3FifoState::MAX_FREQUENCY *)
Definition capped (l : list (ent * N)) : Prop := Forall (fun p => snd p <= 3) l.
Definition S3Inv (s : s3) : Prop := capped (s_small s) /\ capped (s_main s).

Lemma capped_fsum l : capped l -> fsum l <= 3 * N.of_nat (length l).
Proof.
  induction 1 as [|x l Hx Hl IH]; cbn [fsum length]; [lia|]. rewrite Nat2N.inj_succ. lia.
Qed.

Lemma bump_capped i l : capped l -> capped (bump i l).
Proof.
  unfold capped, bump. intros H. apply Forall_forall. intros p Hp. apply in_map_iff in Hp. destruct Hp as [x [<- Hx]].
  rewrite Forall_forall in H. specialize (H x Hx). destruct (ent_is i (fst x)); cbn [snd]; lia.
Qed.

Theorem S3Inv_acquire s i : S3Inv s -> S3Inv (s3_acquire s i).
Proof. intros [A B]. split; cbn [s3_acquire s3_with_queues s_small s_main]; apply bump_capped; assumption. Qed.

Theorem S3Inv_push s e : S3Inv s -> S3Inv (s3_push s e).
Proof.
  intros [A B]. unfold s3_push, S3Inv, capped in *.
  assert (H0 : Forall (fun p : ent * N => snd p <= 3) [(e, 0)]) by (constructor; [cbn [snd]; lia|constructor]).
  destruct (nmem _ _); cbn [s3_with_queues s_small s_main]; split; auto; apply Forall_app; split; assumption.
Qed.

Lemma evict_small_none small : forall s s1,
  s3_evict_small small s = (None, s1) -> Forall (fun p => s_thr s <= snd p) small.
Proof.
  induction small as [|[e0 f0] small IH]; intros s s1 Es; [constructor|].
  cbn [s3_evict_small] in Es. destruct (N.leb_spec (s_thr s) f0) as [Hle|Hgt]; [|discriminate].
  constructor; [exact Hle|]. exact (IH _ _ Es).
Qed.

(* with the cap the main-queue scan needs at most 3 rounds per record; [s3_pop] gives it 4, and one *)
Theorem s3_pop_total s : S3Inv s -> s_small s <> [] \/ s_main s <> [] -> exists e s', s3_pop s = Some (e, s').
Proof.
  assert (Htail : forall s, capped (s_main s) -> s_small s <> [] \/ s_main s <> [] ->
            exists e s', match s3_evict_main (4 * length (s_main s) + 1) s with Some r => Some r | None => s3_evict_small_force s end
                         = Some (e, s')).
  { clear s. intros s Hc Hne. destruct (s_main s) as [|x main] eqn:Em.
    - cbn [length Nat.mul Nat.add s3_evict_main]. rewrite Em. unfold s3_evict_small_force.
      destruct (s_small s) as [|[e f] small]; [tauto|eauto].
    - rewrite <- Em in *. destruct (evict_main_ends (4 * length (s_main s) + 1) s) as (e & s' & ->); [congruence| |eauto].
      pose proof (capped_fsum _ Hc). lia. }
  intros [Hs Hm] Hne. unfold s3_pop.
  destruct (s_scap s <? s_sw s); [|apply Htail; assumption].
  destruct (s3_evict_small (s_small s) s) as [[e|] s1] eqn:Es; [eauto|].
  (* no victim in the small queue: all of it went to the main queue *)
  destruct (evict_small_all_promoted _ s (evict_small_none _ _ _ Es)) as [E|E]; rewrite E in Es; injection Es as <-.
  - apply Htail; cbn [s3_with_queues s_main s_small]; [apply Forall_app; split; assumption|].
    right. intros [A B]%app_eq_nil. tauto.
  - apply Htail; assumption.
Qed.

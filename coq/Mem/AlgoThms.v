From Coq Require Import List NArith Arith Lia Sorted.
From FV Require Import Mem.Algo.
Import ListNotations.
Open Scope N_scope.

Definition wsum (l : list ent) : N := fold_right (fun e a => ew e + a) 0 l.

Lemma wsum_app l l' : wsum (l ++ l') = wsum l + wsum l'.
Proof. induction l as [|e l IH]; simpl; [lia|]. rewrite IH. lia. Qed.

Lemma ent_is_eq i e : ent_is i e = true <-> eid e = i.
Proof. apply Nat.eqb_eq. Qed.

Lemma take_out_cases {A} (p : A -> bool) l :
  match take_out p l with
  | Some (x, l') => p x = true /\
      exists l1 l2, l = l1 ++ x :: l2 /\ l' = l1 ++ l2 /\ forallb (fun y => negb (p y)) l1 = true
  | None => forall y, In y l -> p y = false
  end.
Proof.
  induction l as [|y l IH]; cbn [take_out]; [intros y []|]. destruct (p y) eqn:E.
  - split; [exact E|]. exists [], l. auto.
  - destruct (take_out p l) as [[x l']|].
    + destruct IH as (Hp & l1 & l2 & -> & -> & Hn). split; [exact Hp|].
      exists (y :: l1), l2. cbn [forallb]. rewrite E, Hn. auto.
    + intros z [<-|Hz]; auto.
Qed.

(* records enter with increasing ids (an id is the record's allocation number), so "insertion
   order" is id order *)
Definition fifo_sorted (q : fifo) : Prop := StronglySorted (fun a b => (eid a < eid b)%nat) q.

Lemma fifo_remove_sorted q i : fifo_sorted q -> fifo_sorted (fifo_remove q i).
Proof.
  intros Hs. unfold fifo_remove. pose proof (take_out_cases (ent_is i) q) as T.
  destruct (take_out (ent_is i) q) as [[x q']|]; [|exact Hs].
  destruct T as (_ & l1 & l2 & -> & -> & _). unfold fifo_sorted in *.
  induction l1 as [|y l1 IH]; inversion Hs as [|? ? Hs' Hall]; subst; [assumption|].
  constructor; [exact (IH Hs')|]. rewrite Forall_app in *. destruct Hall as [H1 H2]. inversion H2; auto.
Qed.

Record LruInv (s : lru) : Prop := {
  li_hpw : l_hpw s = wsum (l_high s) }.

(* LfuThms.v reads w-TinyLFU's window loop off this one ([lfu_win_overflow_lru]) *)
Lemma lru_overflow_spec {high low hpw cap h l w} :
  hpw = wsum high -> lru_overflow high low hpw cap = (h, l, w) ->
  w = wsum h /\ w <= cap /\
  exists moved, high = moved ++ h /\ l = low ++ moved.
Proof.
  revert low hpw. induction high as [|e high IH]; intros low hpw Hw; cbn [lru_overflow];
    destruct (N.leb_spec hpw cap) as [Hle|Hgt].
  1, 3: intros [= <- <- <-]; repeat split; auto; exists []; split; [reflexivity|symmetry; apply app_nil_r].
  - exfalso. simpl in Hw. lia.
  - intros H. simpl in Hw.
    destruct (IH (low ++ [e]) (hpw - ew e) ltac:(lia) H) as (A & B & moved & -> & ->).
    repeat split; auto. exists (e :: moved). rewrite <- app_assoc. auto.
Qed.

Lemma lru_settle_spec s :
  LruInv s ->
  let s' := lru_settle s in
  LruInv s' /\ l_hpw s' <= l_hpcap s' /\ l_pin s' = l_pin s /\ l_hpcap s' = l_hpcap s /\
  exists moved, l_high s = moved ++ l_high s' /\ l_low s' = l_low s ++ moved.
Proof.
  intros [Hw]. unfold lru_settle.
  destruct (lru_overflow (l_high s) (l_low s) (l_hpw s) (l_hpcap s)) as [[h l] w] eqn:E.
  destruct (lru_overflow_spec Hw E) as (A & B & moved & C & D).
  cbn [l_low l_high l_pin l_hpw l_hpcap]. repeat split; auto. exists moved. auto.
Qed.

(* the shape of [lru_push] and [lru_release] *)
Lemma lru_settle_snoc s e low pin : LruInv s ->
  let s' := lru_settle (mkLru low (l_high s ++ [e]) pin (l_hpw s + ew e) (l_hpcap s)) in
  LruInv s' /\ l_pin s' = pin /\ l_hpw s' <= l_hpcap s /\
  exists moved, l_high s ++ [e] = moved ++ l_high s' /\ l_low s' = low ++ moved.
Proof.
  intros [Hw]. destruct (lru_settle_spec (mkLru low (l_high s ++ [e]) pin (l_hpw s + ew e) (l_hpcap s))) as (A & B & C & D & E).
  { constructor. cbn [l_hpw l_high]. rewrite wsum_app, Hw. simpl. lia. }
  rewrite D in B. auto.
Qed.

Lemma LruInv_push s e low : LruInv s -> LruInv (lru_push s e low) /\ l_pin (lru_push s e low) = l_pin s.
Proof.
  intros HI. unfold lru_push. destruct low.
  - split; [|reflexivity]. constructor. apply HI.
  - destruct (lru_settle_snoc s e (l_low s) (l_pin s) HI) as (A & C & _). auto.
Qed.

Lemma lru_pop_none s : lru_pop s = None <-> l_low s = [] /\ l_high s = [].
Proof.
  unfold lru_pop. destruct (l_low s); [destruct (l_high s)|]; split; intros H; try discriminate; auto;
    destruct H; discriminate.
Qed.

Lemma LruInv_acquire s i : LruInv s -> LruInv (lru_acquire s i).
Proof.
  intros [Hw]. unfold lru_acquire. destruct (existsb _ (l_pin s)); [constructor; exact Hw|].
  pose proof (take_out_cases (ent_is i) (l_high s)) as Th. destruct (take_out (ent_is i) (l_high s)) as [[e high']|];
    [|destruct (take_out (ent_is i) (l_low s)) as [[e low']|]; constructor; exact Hw].
  destruct Th as (_ & l1 & l2 & E & -> & _).
  constructor. cbn [l_hpw l_high]. rewrite Hw, E, !wsum_app. simpl. lia.
Qed.

Lemma lru_acquire_pinned s i e :
  In e (l_low s ++ l_high s) -> eid e = i -> exists e' b, In (e', b) (l_pin (lru_acquire s i)) /\ eid e' = i.
Proof.
  intros Hin Heq%ent_is_eq. unfold lru_acquire. destruct (existsb _ (l_pin s)) eqn:Ex.
  { apply existsb_exists in Ex. destruct Ex as ([e' b] & Hp & He%ent_is_eq). eauto. }
  pose proof (take_out_cases (ent_is i) (l_high s)) as Th. pose proof (take_out_cases (ent_is i) (l_low s)) as Tl.
  destruct (take_out (ent_is i) (l_high s)) as [[e' high']|]; [|destruct (take_out (ent_is i) (l_low s)) as [[e' low']|]].
  - exists e', true. split; [apply in_elt|apply ent_is_eq, Th].
  - exists e', false. split; [apply in_elt|apply ent_is_eq, Tl].
  - (* in neither list: no record has id i *)
    apply in_app_iff in Hin. destruct Hin as [Hin|Hin]; [rewrite (Tl _ Hin) in Heq|rewrite (Th _ Hin) in Heq]; discriminate.
Qed.

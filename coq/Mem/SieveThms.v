From Coq Require Import List Arith Lia.
From FV Require Import Mem.Algo.
Import ListNotations.

(* the visited bit at position [j] *)
Definition vis (q : list (ent * bool)) (j : nat) : option bool :=
  match nth_error q j with Some (_, b) => Some b | None => None end.

(* [q] with the visited bits of positions a .. a+n-1 cleared: the form every scan result is put into ([scan_run]) *)
Fixpoint clear_from (a n : nat) (q : list (ent * bool)) : list (ent * bool) :=
  match q with
  | [] => []
  | (e, b) :: q' =>
      match a with
      | S a' => (e, b) :: clear_from a' n q'
      | O => match n with O => (e, b) :: q' | S n' => (e, false) :: clear_from O n' q' end
      end
  end.

Lemma clear_from_0 a q : clear_from a 0 q = q.
Proof.
  revert a. induction q as [|[e b] q IH]; intros [|a]; cbn [clear_from]; rewrite ?IH; reflexivity.
Qed.

Lemma clear_from_fst a n q : map fst (clear_from a n q) = map fst q.
Proof.
  revert a n. induction q as [|[e b] q IH]; intros [|a] [|n]; cbn [clear_from map fst]; rewrite ?IH; reflexivity.
Qed.

Lemma clear_from_length a n q : length (clear_from a n q) = length q.
Proof. rewrite <- (map_length fst), clear_from_fst. apply map_length. Qed.

Lemma set_visited_clear p q : set_visited p false q = clear_from p 1 q.
Proof.
  revert p. induction q as [|[e b] q IH]; intros [|p]; cbn [set_visited clear_from]; rewrite ?IH, ?clear_from_0; reflexivity.
Qed.

Lemma clear_from_step p n q : clear_from (S p) n (clear_from p 1 q) = clear_from p (S n) q.
Proof.
  revert p. induction q as [|[e b] q IH]; intros [|p]; cbn [clear_from]; rewrite ?IH, ?clear_from_0; reflexivity.
Qed.

Lemma clear_from_front a n q : clear_from 0 a (clear_from a n q) = clear_from 0 (a + n) q.
Proof.
  revert a. induction q as [|[e b] q IH]; intros [|a]; cbn [clear_from Nat.add]; try reflexivity.
  - destruct n; reflexivity.
  - rewrite IH. reflexivity.
Qed.

Lemma vis_clear_other a n q j : (j < a \/ a + n <= j)%nat -> vis (clear_from a n q) j = vis q j.
Proof.
  unfold vis. revert a n j. induction q as [|[e b] q IH]; intros [|a] [|n] [|j] Hj; cbn [clear_from nth_error];
    try reflexivity; try lia; apply IH; lia.
Qed.

Lemma vis_clear_in a n q j : (a <= j < a + n)%nat -> (j < length q)%nat -> vis (clear_from a n q) j = Some false.
Proof.
  unfold vis. revert a n j. induction q as [|[e b] q IH]; intros [|a] [|n] [|j] Hj Hl; cbn [clear_from nth_error length] in *;
    try reflexivity; try lia; apply IH; lia.
Qed.

Lemma scan_unfold fuel p q : sieve_scan (S fuel) p q =
  match vis q p with
  | Some true => sieve_scan fuel (if Nat.eqb (S p) (length q) then 0 else S p) (clear_from p 1 q)
  | Some false => Some (p, q)
  | None => None
  end.
Proof.
  unfold vis. cbn [sieve_scan]. destruct (nth_error q p) as [[e []]|]; try reflexivity.
  rewrite set_visited_clear. destruct (Nat.eqb (S p) (length q)); reflexivity.
Qed.

Lemma scan_run q : forall d fuel p, (p < length q)%nat -> (p + d <= length q)%nat -> (d <= fuel)%nat ->
  (forall i, (p <= i < p + d)%nat -> vis q i = Some true) ->
  sieve_scan fuel p q = sieve_scan (fuel - d) (if Nat.eqb (p + d) (length q) then 0 else p + d) (clear_from p d q).
Proof.
  intros d. revert q. induction d as [|d IH]; intros q fuel p Hp Hl Hf Hall.
  - rewrite Nat.add_0_r, Nat.sub_0_r, clear_from_0. destruct (Nat.eqb_spec p (length q)); [lia|reflexivity].
  - destruct fuel as [|fuel]; [lia|]. rewrite scan_unfold, Hall by lia. cbn [Nat.sub].
    rewrite Nat.add_succ_r. change (S (p + d)) with (S p + d)%nat.
    destruct (Nat.eqb_spec (S p) (length q)) as [E|E].
    + assert (d = 0)%nat by lia; subst d. rewrite Nat.sub_0_r, Nat.add_0_r, E, Nat.eqb_refl. reflexivity.
    + rewrite IH, clear_from_length, clear_from_step; rewrite ?clear_from_length; try lia; [reflexivity|].
      intros i Hi. rewrite vis_clear_other by lia. apply Hall. lia.
Qed.

Lemma scan_to q fuel p j : (p <= j < length q)%nat -> (j - p < fuel)%nat ->
  vis q j = Some false -> (forall i, (p <= i < j)%nat -> vis q i = Some true) ->
  sieve_scan fuel p q = Some (j, clear_from p (j - p) q).
Proof.
  intros Hj Hf Hv Hall. rewrite (scan_run q (j - p)); try lia; [|intros i Hi; apply Hall; lia].
  replace (p + (j - p))%nat with j by lia. destruct (Nat.eqb_spec j (length q)); [lia|].
  destruct (fuel - (j - p))%nat eqn:E; [lia|]. rewrite scan_unfold, vis_clear_other, Hv by lia. reflexivity.
Qed.

Lemma scan_wrap_to q fuel p j : (j <= p < length q)%nat -> (length q - p + j < fuel)%nat ->
  (forall i, (p <= i < length q)%nat -> vis q i = Some true) ->
  (j < p -> vis q j = Some false)%nat -> (forall i, (i < j)%nat -> vis q i = Some true) ->
  sieve_scan fuel p q = Some (j, clear_from 0 j (clear_from p (length q - p) q)).
Proof.
  intros Hj Hf Hback Hv Hfront. rewrite (scan_run q (length q - p)); try lia; [|intros i Hi; apply Hback; lia].
  replace (p + (length q - p))%nat with (length q) by lia. rewrite Nat.eqb_refl.
  rewrite (scan_to _ _ 0 j), Nat.sub_0_r; rewrite ?clear_from_length; try lia; [reflexivity| |].
  - (* the second pass stops at a record that was unvisited before, or at the hand's own, cleared by the first *)
    destruct (Nat.eq_dec j p) as [->|Hne]; [apply vis_clear_in; lia|]. rewrite vis_clear_other by lia. apply Hv. lia.
  - intros i Hi. rewrite vis_clear_other by lia. apply Hfront. lia.
Qed.

Lemma scan_around q fuel p : (p < length q < fuel)%nat -> (forall i, (i < length q)%nat -> vis q i = Some true) ->
  sieve_scan fuel p q = Some (p, clear_from 0 (length q) q).
Proof.
  intros Hp Hall. rewrite (scan_wrap_to q fuel p p); try lia; try (intros i Hi; apply Hall; lia).
  rewrite clear_from_front. replace (p + (length q - p))%nat with (length q) by lia. reflexivity.
Qed.

Lemma sieve_scan_sound {fuel p q p' q'} : sieve_scan fuel p q = Some (p', q') ->
  map fst q' = map fst q /\ vis q' p' = Some false.
Proof.
  revert p q. induction fuel as [|fuel IH]; intros p q; [discriminate|]. rewrite scan_unfold.
  destruct (vis q p) as [[]|] eqn:E; [|intros [= <- <-]; auto|discriminate].
  intros H. apply IH in H. rewrite clear_from_fst in H. exact H.
Qed.

Lemma remove_nth_fst {A B} n (l : list (A * B)) : map fst (remove_nth n l) = remove_nth n (map fst l).
Proof. revert n. induction l as [|x l IH]; intros [|n]; cbn [remove_nth map]; rewrite ?IH; reflexivity. Qed.

From Coq Require Import List NArith Bool.
From FV Require Import Mem.Shard Mem.ShardLemmas.
Import ListNotations.
Open Scope N_scope.

(* the state in which [drop] tests for the last reference ([drop_unfold]) *)
Definition dropped (s : shard) (h : N) (i : id) : shard :=
  dec_ref (set_handles s (hremove h (handles s))) i.

(* [evict_one] ([evict_one_eq]), [replaced], [remove] after its new handle and each round of [clear] ([clear_inv],
   ShardInv.v) are this, each with its own event *)
Definition leave (c : cfg) (s : shard) (k : N) (i : id) (e : event) : shard :=
  mkShard (arena s) (remove_key k (idx s)) (pinned s) (refs s) (handles s) (usage s - weight_of s i) (entries s - 1)
    (capacity s) (elog s ++ [(e, i)]) (if event_eqb e EvEvict && piped c then plog s ++ [i] else plog s).

Ltac sproj := cbn [dropped leave arena idx usage entries capacity refs handles pinned elog plog
                    add_handle inc_ref dec_ref set_refs set_handles set_usage set_idx set_entries set_capacity
                    set_pinned add_event unindex alloc] in *.

Lemma dropped_ref_other s h i j : j <> i -> get_ref (dropped s h i) j = get_ref s j.
Proof. intros Hne. unfold get_ref; sproj. apply nth_upd_other. auto. Qed.

Lemma shard_eta s :
  mkShard (arena s) (idx s) (pinned s) (refs s) (handles s) (usage s) (entries s) (capacity s) (elog s) (plog s) = s.
Proof. destruct s; reflexivity. Qed.

(* unfolding nested updates instead copies the state nine times per level *)
Lemma shard_ext a b :
  arena a = arena b -> idx a = idx b -> pinned a = pinned b -> refs a = refs b -> handles a = handles b ->
  usage a = usage b -> entries a = entries b -> capacity a = capacity b -> elog a = elog b -> plog a = plog b -> a = b.
Proof. destruct a, b; simpl; intros; subst; reflexivity. Qed.

(* Each update that the model guards by a test, as one record with the test inside the field it guards: after
   rewriting with these every field of every operation's result computes, with no case split on the configuration. *)
Lemma add_pipe_eq c s i :
  add_pipe c s i = mkShard (arena s) (idx s) (pinned s) (refs s) (handles s) (usage s) (entries s) (capacity s)
                     (elog s) (if piped c then plog s ++ [i] else plog s).
Proof. unfold add_pipe. destruct (piped c); [reflexivity|symmetry; apply shard_eta]. Qed.

Lemma acquire_eq c s i :
  acquire c s i = set_pinned s (if pins c && indexed s i && negb (memb i (pinned s)) then i :: pinned s else pinned s).
Proof. unfold acquire. destruct (_ && _); [reflexivity|symmetry; apply shard_eta]. Qed.

Lemma release_eq c s i :
  release c s i = set_pinned s (if pins c && indexed s i && memb i (pinned s) then remove_id i (pinned s) else pinned s).
Proof. unfold release. destruct (_ && _); [reflexivity|symmetry; apply shard_eta]. Qed.

Lemma evict_one_eq c s k i : evict_one c s k i = leave c s k i EvEvict.
Proof. unfold evict_one. rewrite add_pipe_eq. reflexivity. Qed.

Lemma clear_eq c s :
  clear c s = mkShard (arena s) [] (pinned s) (refs s) (handles s) (if bug_clear c then usage s else 0) 0 (capacity s)
                (elog s ++ map (fun p : N * id => (EvClear, snd p)) (idx s)) (plog s).
Proof.
  assert (H : forall l s, fold_left (fun s (p : N * id) => add_event s EvClear (snd p)) l s =
                          mkShard (arena s) (idx s) (pinned s) (refs s) (handles s) (usage s) (entries s) (capacity s)
                            (elog s ++ map (fun p : N * id => (EvClear, snd p)) l) (plog s)).
  { induction l as [|p l IH]; intros s0; simpl; [rewrite app_nil_r, shard_eta; reflexivity|].
    rewrite IH. sproj. rewrite <- app_assoc. reflexivity. }
  unfold clear. rewrite H. destruct (bug_clear c); reflexivity.
Qed.

Ltac snorm := rewrite ?evict_one_eq, ?add_pipe_eq, ?acquire_eq, ?release_eq, ?clear_eq in *; sproj.

Lemma drop_unfold c s h :
  drop c s h =
  match hlookup h (handles s) with
  | None => s
  | Some i =>
      let s1 := dropped s h i in
      if N.eqb (get_ref s1 i) 0 then
        if rphantom (get_rec s i) then add_pipe c (add_event s1 EvEvict i) i else release c s1 i
      else s1
  end.
Proof. reflexivity. Qed.

Lemma touch_repaired c s k h : bug_touch c = false -> touch c s k h = drop c (get c s k h) h.
Proof. intros Hb. unfold touch. rewrite Hb. reflexivity. Qed.

Lemma get_frame c s k h :
  arena (get c s k h) = arena s /\ idx (get c s k h) = idx s /\ usage (get c s k h) = usage s /\
  entries (get c s k h) = entries s.
Proof. unfold get. destruct (lookup k (idx s)); snorm; repeat split. Qed.

Lemma drop_frame c s h :
  arena (drop c s h) = arena s /\ idx (drop c s h) = idx s /\ usage (drop c s h) = usage s /\
  entries (drop c s h) = entries s.
Proof.
  rewrite drop_unfold. destruct (hlookup h (handles s)); [|repeat split]. cbv zeta.
  destruct (N.eqb _ _); [|repeat split]. destruct (rphantom _); snorm; repeat split.
Qed.

(* what evict_oracle (insert, resize, evict_all) and flush_oracle have in common; they differ in which victims they
   admit *)
Inductive evs (c : cfg) : shard -> shard -> Prop :=
| evs_nil s : evs c s s
| evs_cons s k i s' : lookup k (idx s) = Some i -> evs c (evict_one c s k i) s' -> evs c s s'.

Lemma evict_oracle_evs c target vs : forall s s', evict_oracle c target vs s = Some s' -> evs c s s'.
Proof.
  induction vs as [|k vs IH]; intros s s'; simpl.
  - destruct (_ || _); intros [= <-]. constructor.
  - destruct (usage s <=? target); [discriminate|].
    destruct (lookup k (idx s)) as [i|] eqn:Hl; [|discriminate].
    destruct (memb i (pinned s)); [discriminate|]. intros H. econstructor; eauto.
Qed.

Lemma flush_oracle_evs c vs : forall s s', flush_oracle c vs s = Some s' -> evs c s s' /\ idx s' = [].
Proof.
  induction vs as [|k vs IH]; intros s s'; simpl.
  - destruct (idx s) eqn:E; intros [= <-]. split; [constructor|exact E].
  - destruct (lookup k (idx s)) as [i|] eqn:Hl; [|discriminate].
    destruct (_ || _); [|destruct (memb i (pinned s)); [discriminate|]];
      intros H; destruct (IH _ _ H); split; auto; econstructor; eauto.
Qed.

Lemma evs_frame c s s' : evs c s s' ->
  arena s' = arena s /\ capacity s' = capacity s /\ refs s' = refs s /\ handles s' = handles s /\
  pinned s' = pinned s /\ incl (idx s') (idx s).
Proof.
  induction 1 as [s|s k i s' _ _ IH]; [repeat split; apply incl_refl|].
  snorm. destruct IH as (A & B & C & D & E & F). repeat split; auto.
  intros p Hp. apply F, remove_key_In in Hp. tauto.
Qed.

Lemma evs_arena c s s' : evs c s s' -> arena s' = arena s.
Proof. intros H. apply (evs_frame c s s' H). Qed.

Lemma evs_pinned c s s' : evs c s s' -> pinned s' = pinned s.
Proof. intros H. apply (evs_frame c s s' H). Qed.

Lemma evs_lookup c s s' k : evs c s s' -> lookup k (idx s') = lookup k (idx s) \/ lookup k (idx s') = None.
Proof.
  induction 1 as [s|s k0 i s' _ _ [E|E]]; auto. snorm. rewrite E, lookup_remove_key. destruct (k0 =? k); auto.
Qed.

(* [se]: the state after allocation and, for an admitted record, the evictions.  One record for the four branches of
   [insert]. *)
Definition inserted (se : shard) (n : id) (k w : N) (ph : bool) (h : N) : shard :=
  let o := lookup k (idx se) in
  mkShard (arena se)
    ((if ph then [] else [(k, n)]) ++ remove_key k (idx se))
    (pinned se)
    (upd n (fun x => x + 1) (refs se))
    ((h, n) :: handles se)
    (match o with Some i => usage se - weight_of se i | None => usage se end + (if ph then 0 else w))
    (match o, ph with Some _, true => entries se - 1 | None, false => entries se + 1 | _, _ => entries se end)
    (capacity se)
    (elog se ++ match o with Some i => [(EvReplace, i)] | None => [] end ++ if ph then [(EvRemove, n)] else [])
    (plog se).

Lemma inserted_lookup se n k w ph h k' :
  lookup k' (idx (inserted se n k w ph h)) =
  if k =? k' then if ph then None else Some n else lookup k' (idx se).
Proof.
  unfold inserted; sproj. destruct ph; cbn [app lookup]; rewrite lookup_remove_key, ?(N.eqb_sym k'); destruct (k =? k'); reflexivity.
Qed.

(* the second conjunct follows from the first; it is what most callers want *)
Lemma insert_spec c s k v w hsh low ph h vs s' :
  insert c s k v w hsh low ph h vs = Some s' ->
  exists se, (if ph then vs = [] /\ se = alloc s (mkRec k v w hsh ph low)
              else evict_oracle c (capacity s - w) vs (alloc s (mkRec k v w hsh ph low)) = Some se) /\
             evs c (alloc s (mkRec k v w hsh ph low)) se /\
             s' = inserted se (length (arena s)) k w ph h.
Proof.
  unfold insert, inserted. destruct ph.
  - destruct vs; [|discriminate]. intros [= <-]. eexists. repeat split; [constructor|]. sproj.
    destruct (lookup k (idx s)) eqn:Hl; apply shard_ext; sproj; cbn [app];
      rewrite ?N.add_0_r, <- ?app_assoc, ?(remove_key_none _ _ Hl); reflexivity.
  - sproj. destruct (evict_oracle c _ vs _) as [se|] eqn:He; [|discriminate]. intros [= <-].
    exists se. repeat split; [eapply evict_oracle_evs, He|].
    destruct (lookup k (idx se)) eqn:Hl; apply shard_ext; sproj; cbn [app];
      rewrite ?app_nil_r, ?(remove_key_none _ _ Hl); reflexivity.
Qed.

(* [insert] in phases ([insert_phases], ShardInv.v; needs [IdxInv]): each phase starts from a state of the machine
   proper.  Go by the phases where an invariant has to be re-established on the way, by [inserted] where a field of the
   result is wanted. *)
Definition replaced (s : shard) (k : N) : shard :=
  match lookup k (idx s) with
  | Some o => add_event (set_entries (unindex s k o) (entries s - 1)) EvReplace o
  | None => s
  end.

Definition admitted (s : shard) (r : rec) (h : N) : shard :=
  let n := length (arena s) in
  mkShard (arena s ++ [r]) (if rphantom r then idx s else (rkey r, n) :: idx s) (pinned s)
    (upd n (fun x => x + 1) (refs s ++ [0])) ((h, n) :: handles s)
    (if rphantom r then usage s else usage s + rweight r)
    (if rphantom r then entries s else entries s + 1) (capacity s)
    (if rphantom r then elog s ++ [(EvRemove, n)] else elog s) (plog s).

Lemma replaced_lookup s k : lookup k (idx (replaced s k)) = None.
Proof. unfold replaced. destruct (lookup k (idx s)) eqn:Hl; [sproj; rewrite lookup_remove_key, N.eqb_refl; reflexivity|exact Hl]. Qed.

(* [t_hold] asks that the record be resident or held: no transition revives a phantom whose last handle is gone; [t_pin]
   that it be held: [get] pins what it has just taken a handle to.  How the operations are made of these: [step_inv],
   ShardInv.v. *)
Inductive trans (c : cfg) : shard -> shard -> Prop :=
| t_admit s r h : lookup (rkey r) (idx s) = None -> trans c s (admitted s r h)
| t_hold s h i : (exists k, lookup k (idx s) = Some i) \/ (exists h0, hlookup h0 (handles s) = Some i) ->
                 trans c s (add_handle (inc_ref s i) h i)
| t_pin s i : 0 < hcount (handles s) i -> trans c s (acquire c s i)
| t_leave s k i e : lookup k (idx s) = Some i -> trans c s (leave c s k i e)
| t_capacity s cap : trans c s (set_capacity s cap)
| t_drop s h : trans c s (drop c s h).

Lemma run_inv c (P : shard -> Prop) :
  (forall s o s', P s -> step c s o = Some s' -> P s') ->
  forall ops s s', P s -> run c s ops = Some s' -> P s'.
Proof.
  intros Hstep. induction ops as [|o ops IH]; intros s s' HP; simpl.
  - intros [= <-]. exact HP.
  - destruct (step c s o) as [s1|] eqn:Hs; [|discriminate]. eauto.
Qed.

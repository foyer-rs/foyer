From Coq Require Import List NArith Bool Arith Lia.
From FV Require Import Base.ListX Mem.Shard.
Import ListNotations.
Open Scope N_scope.

Lemma lookup_In k l i : lookup k l = Some i -> In (k, i) l.
Proof.
  induction l as [|[k' j] l IH]; simpl; [discriminate|].
  destruct (N.eqb_spec k k') as [->|Hne]; intros H.
  - inversion H; subst. left; reflexivity.
  - right. apply IH. exact H.
Qed.

Lemma lookup_None k l : lookup k l = None <-> ~ In k (map fst l).
Proof.
  induction l as [|[k' j] l IH]; simpl; [tauto|].
  destruct (N.eqb_spec k k') as [->|Hne]; [split; [discriminate|tauto]|].
  rewrite IH. split; [intros H [E|Hin]; [congruence|auto]|tauto].
Qed.

Lemma In_lookup k i l : NoDup (map fst l) -> In (k, i) l -> lookup k l = Some i.
Proof.
  induction l as [|[k' j] l IH]; simpl; intros Hnd Hin; [contradiction|].
  inversion Hnd as [|? ? Hnot Hnd']; subst.
  destruct (N.eqb_spec k k') as [->|Hne].
  - destruct Hin as [Heq|Hin]; [inversion Heq; reflexivity|].
    exfalso. apply Hnot. apply in_map_iff. exists (k', i). auto.
  - destruct Hin as [Heq|Hin]; [inversion Heq; congruence|]. apply IH; assumption.
Qed.

(* [remove_key] and [remove_id] are filters: membership, inclusion and NoDup come from the library *)
Lemma remove_key_filter k l : remove_key k l = filter (fun p => negb (N.eqb k (fst p))) l.
Proof. induction l as [|[k' j] l IH]; simpl; [reflexivity|]. rewrite IH. destruct (N.eqb k k'); reflexivity. Qed.

Lemma remove_key_In k l p : In p (remove_key k l) <-> In p l /\ fst p <> k.
Proof. rewrite remove_key_filter, filter_In, negb_true_iff, N.eqb_neq. intuition congruence. Qed.

Lemma remove_key_map_snd_incl k l x : In x (map snd (remove_key k l)) -> In x (map snd l).
Proof. apply incl_map. rewrite remove_key_filter. apply incl_filter. Qed.

Lemma remove_key_nodup {B} (f : N * id -> B) k l : NoDup (map f l) -> NoDup (map f (remove_key k l)).
Proof. rewrite remove_key_filter. apply NoDup_map_filter. Qed.

Lemma remove_key_none k l : lookup k l = None -> remove_key k l = l.
Proof.
  induction l as [|[k' j] l IH]; simpl; [reflexivity|].
  destruct (N.eqb k k'); [discriminate|]. intros H. rewrite IH; auto.
Qed.

Lemma remove_key_length k l i :
  NoDup (map fst l) -> lookup k l = Some i -> S (length (remove_key k l)) = length l.
Proof.
  induction l as [|[k' j] l IH]; simpl; intros Hnd H; [discriminate|].
  inversion Hnd as [|? ? Hnot Hnd']; subst.
  destruct (N.eqb_spec k k') as [->|Hne].
  - rewrite remove_key_none by apply lookup_None, Hnot. reflexivity.
  - simpl. f_equal. eapply IH; eauto.
Qed.

Lemma remove_key_ids k l i j :
  NoDup (map fst l) -> NoDup (map snd l) -> lookup k l = Some i ->
  (In j (map snd (remove_key k l)) <-> In j (map snd l) /\ j <> i).
Proof.
  intros Hf Hs Hl. rewrite !in_map_iff. split.
  - intros [[k' j'] [E Hin]]. simpl in E; subst j'. apply remove_key_In in Hin. destruct Hin as [Hin Hne].
    split; [exists (k', j); auto|]. intros ->. apply Hne.
    exact (f_equal fst (NoDup_map_inj snd l _ _ Hs Hin (lookup_In _ _ _ Hl) eq_refl)).
  - intros [[[k' j'] [E Hin]] Hne]. simpl in E; subst j'. exists (k', j). split; [reflexivity|].
    apply remove_key_In. split; [assumption|]. simpl. intros ->. apply Hne.
    rewrite (In_lookup _ _ _ Hf Hin) in Hl. congruence.
Qed.

Lemma lookup_remove_key k' l k : lookup k (remove_key k' l) = if k' =? k then None else lookup k l.
Proof.
  induction l as [|[k2 j] l IH]; simpl; [destruct (k' =? k); reflexivity|].
  destruct (N.eqb_spec k' k2) as [->|H2]; simpl; rewrite IH.
  - rewrite (N.eqb_sym k k2). destruct (k2 =? k); reflexivity.
  - destruct (N.eqb_spec k k2) as [->|]; [|reflexivity]. destruct (N.eqb_spec k' k2); [contradiction|reflexivity].
Qed.

Lemma memb_In i l : memb i l = true <-> In i l.
Proof.
  induction l as [|j l IH]; simpl; [split; [discriminate|tauto]|].
  rewrite orb_true_iff, IH, Nat.eqb_eq. split; intros [<-|H]; auto.
Qed.

Lemma memb_false i l : memb i l = false <-> ~ In i l.
Proof. rewrite <- memb_In. destruct (memb i l); split; congruence. Qed.

Lemma indexed_In s i : indexed s i = true <-> In i (map snd (idx s)).
Proof. unfold indexed. apply memb_In. Qed.

Lemma all_pinned_In s k i : all_pinned s = true -> In (k, i) (idx s) -> In i (pinned s).
Proof. unfold all_pinned. rewrite forallb_forall. intros H Hin. apply memb_In, (H (k, i) Hin). Qed.

Lemma remove_id_In i l x : In x (remove_id i l) <-> In x l /\ x <> i.
Proof.
  assert (E : remove_id i l = filter (fun j => negb (Nat.eqb i j)) l).
  { induction l as [|j l IH]; simpl; [reflexivity|]. rewrite IH. destruct (Nat.eqb i j); reflexivity. }
  rewrite E, filter_In, negb_true_iff, Nat.eqb_neq. intuition congruence.
Qed.

Lemma upd_length {A} i (f : A -> A) l : length (upd i f l) = length l.
Proof. revert i; induction l as [|x l IH]; intros [|i]; simpl; auto. Qed.

Lemma nth_upd_same {A} i (f : A -> A) l d : (i < length l)%nat -> nth i (upd i f l) d = f (nth i l d).
Proof.
  revert i; induction l as [|x l IH]; intros [|i] H; simpl in *; try lia; auto. apply IH. lia.
Qed.

Lemma nth_upd_other {A} i j (f : A -> A) l d : i <> j -> nth j (upd i f l) d = nth j l d.
Proof.
  revert i j; induction l as [|x l IH]; intros [|i] [|j] H; simpl; auto; try congruence.
Qed.

(* [hcount], [sumw] and, in ShardEvents.v, [ecount] are Shard.v's [handle_count], [sum_weights] and [event_count] on a
   bare list ([*_eq]), so that an invariant can be stated and kept for a field while the state around it changes. *)
Definition hcount (hs : list (N * id)) (i : id) : N :=
  N.of_nat (length (filter (fun p => Nat.eqb (snd p) i) hs)).

Lemma handle_count_eq s i : handle_count s i = hcount (handles s) i.
Proof. reflexivity. Qed.

Lemma hcount_cons h j hs i :
  hcount ((h, j) :: hs) i = (if Nat.eqb j i then 1 else 0) + hcount hs i.
Proof.
  unfold hcount. cbn [filter snd]. destruct (Nat.eqb j i); cbn [length]; [rewrite Nat2N.inj_succ|]; lia.
Qed.

Lemma hcount_cons_le h i hs j : hcount hs j <= hcount ((h, i) :: hs) j.
Proof. rewrite hcount_cons. lia. Qed.

Lemma hlookup_lookup h l : hlookup h l = lookup h l.
Proof. reflexivity. Qed.

Lemma hlookup_In h hs i : hlookup h hs = Some i -> In (h, i) hs.
Proof. rewrite hlookup_lookup. apply lookup_In. Qed.

Lemma hremove_In h hs p : In p (hremove h hs) -> In p hs.
Proof.
  induction hs as [|[h' j] hs IH]; simpl; [tauto|].
  destruct (N.eqb h h'); simpl; intros H; auto. destruct H; auto.
Qed.

Lemma hcount_hremove h hs i j :
  hlookup h hs = Some i ->
  hcount hs j = (if Nat.eqb i j then 1 else 0) + hcount (hremove h hs) j.
Proof.
  induction hs as [|[h' i'] hs IH]; simpl; [discriminate|].
  destruct (N.eqb_spec h h') as [->|Hne]; intros H.
  - inversion H; subst. rewrite hcount_cons. reflexivity.
  - rewrite !hcount_cons. rewrite (IH H). lia.
Qed.

Definition sumw (a : list rec) (l : list (N * id)) : N :=
  fold_right (fun p acc => rweight (nth (snd p) a dummy_rec) + acc) 0 l.

Lemma sum_weights_eq s : sum_weights s = sumw (arena s) (idx s).
Proof. reflexivity. Qed.

Lemma sumw_remove_key a k l i :
  NoDup (map fst l) -> lookup k l = Some i ->
  sumw a l = rweight (nth i a dummy_rec) + sumw a (remove_key k l).
Proof.
  induction l as [|[k' j] l IH]; simpl; intros Hnd H; [discriminate|].
  inversion Hnd as [|? ? Hnot Hnd']; subst.
  destruct (N.eqb_spec k k') as [->|Hne].
  - inversion H; subst. rewrite remove_key_none by apply lookup_None, Hnot. reflexivity.
  - simpl. rewrite (IH Hnd' H). lia.
Qed.

Lemma sumw_arena_app a r l :
  (forall p, In p l -> (snd p < length a)%nat) -> sumw (a ++ [r]) l = sumw a l.
Proof.
  induction l as [|p l IH]; simpl; intros H; [reflexivity|].
  rewrite IH by auto. rewrite app_nth1 by auto. reflexivity.
Qed.

(* subtracting a resident record's weight from the sum does not truncate *)
Lemma sumw_ge a k l i :
  NoDup (map fst l) -> lookup k l = Some i -> rweight (nth i a dummy_rec) <= sumw a l.
Proof. intros Hnd H. rewrite (sumw_remove_key a k l i Hnd H). lia. Qed.

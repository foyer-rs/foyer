From Coq Require Import List NArith Bool Arith Lia.
From FV Require Import Base.ListX Mem.Shard Mem.ShardLemmas Mem.ShardSteps Mem.ShardInv.
Import ListNotations.
Open Scope N_scope.

(* [ri_refs] holds beyond the arena too: no handle, and no count, is there *)
Record RefInv (s : shard) : Prop := {
  ri_len : length (refs s) = length (arena s);
  ri_refs : forall i, get_ref s i = hcount (handles s) i }.

Lemma RefInv_init cap : RefInv (init_shard cap).
Proof. constructor; [reflexivity|]. intros [|i]; reflexivity. Qed.

Lemma RefInv_frame s s' :
  arena s' = arena s -> refs s' = refs s -> handles s' = handles s -> RefInv s -> RefInv s'.
Proof.
  intros A B C [H1 H2]. constructor; unfold get_ref in *; rewrite ?A, ?B, ?C; auto.
Qed.

Lemma held_ref s h i : RefInv s -> hlookup h (handles s) = Some i -> (i < length (arena s))%nat /\ 0 < get_ref s i.
Proof.
  intros HR Hl. assert (Hpos : 0 < get_ref s i) by (rewrite (ri_refs s HR i), (hcount_hremove h _ i i Hl), Nat.eqb_refl; lia).
  split; [|exact Hpos]. rewrite <- (ri_len s HR). apply Nat.lt_nge. intros Hge.
  unfold get_ref in Hpos. rewrite nth_overflow in Hpos by assumption. exact (N.lt_irrefl _ Hpos).
Qed.

Lemma RefInv_alloc s r : RefInv s -> RefInv (alloc s r).
Proof.
  intros [H1 H2]. constructor; sproj.
  - rewrite !app_length. simpl. lia.
  - intros i. unfold get_ref in *; sproj. rewrite nth_snoc_default. apply H2.
Qed.

Lemma RefInv_inc_add s s' i h :
  RefInv s -> (i < length (arena s))%nat ->
  arena s' = arena s -> refs s' = upd i (fun n => n + 1) (refs s) -> handles s' = (h, i) :: handles s ->
  RefInv s'.
Proof.
  intros [H1 H2] Hi A B C.
  constructor; unfold get_ref in *; rewrite ?A, ?B, ?C.
  - rewrite upd_length. assumption.
  - intros j. rewrite hcount_cons. destruct (Nat.eqb_spec i j) as [->|Hne].
    + rewrite nth_upd_same by lia. rewrite H2. lia.
    + rewrite nth_upd_other by assumption. rewrite H2. lia.
Qed.

Lemma RefInv_dropped s h i : RefInv s -> hlookup h (handles s) = Some i -> RefInv (dropped s h i).
Proof.
  intros HR Hl. destruct (held_ref s h i HR Hl) as [Hlt _]. destruct HR as [H1 H2].
  constructor; unfold dropped, get_ref in *; sproj.
  - rewrite upd_length. assumption.
  - intros j. pose proof (hcount_hremove h (handles s) i j Hl) as Hc.
    destruct (Nat.eqb_spec i j) as [->|Hne].
    + rewrite nth_upd_same by lia. rewrite H2. lia.
    + rewrite nth_upd_other by assumption. rewrite H2. lia.
Qed.

Lemma RefInv_trans c s s' : trans c s s' -> IdxInv s -> RefInv s -> RefInv s'.
Proof.
  intros T HI HR. destruct T as [s r h _|s h i Hi|s i _|s k i e _|s cap|s h].
  - (* admit *) eapply (RefInv_inc_add _ _ (length (arena s)) h (RefInv_alloc s r HR)); [|reflexivity..].
    sproj. rewrite app_length. simpl. lia.
  - (* hold *) eapply (RefInv_inc_add s _ i h HR); [|reflexivity..].
    destruct Hi as [[k Hl]|[h0 Hl]]; [apply (IdxInv_lookup s k i HI Hl)|apply (held_ref s h0 i HR Hl)].
  - (* pin *) eapply RefInv_frame; [..|exact HR]; rewrite acquire_eq; reflexivity.
  - (* leave *) eapply RefInv_frame; [..|exact HR]; reflexivity.
  - (* set_capacity *) eapply RefInv_frame; [..|exact HR]; reflexivity.
  - (* drop *) rewrite drop_unfold. destruct (hlookup h (handles s)) as [i|] eqn:Hl; [|assumption]. cbv zeta.
    pose proof (RefInv_dropped s h i HR Hl) as HD.
    destruct (N.eqb _ 0); [|assumption].
    destruct (rphantom _); (eapply RefInv_frame; [..|exact HD]); snorm; reflexivity.
Qed.

(* Residence is asked for because [pinned] is no subset of the index: [unindex] leaves
   it alone, so a record removed, replaced or cleared while pinned stays in the list for good.  Stated over the handles,
   not the counts: only [drop] takes a handle away, and only there does it matter that the count it tests is theirs. *)
Record PinInv (c : cfg) (s : shard) : Prop := {
  pi_nopins : pins c = false -> pinned s = [];
  pi_live : forall i, In i (pinned s) -> In i (map snd (idx s)) -> 0 < hcount (handles s) i }.

Lemma PinInv_init c cap : PinInv c (init_shard cap).
Proof. constructor; simpl; intros; tauto. Qed.

(* every transition but [t_pin] and [t_drop], which gives a handle back *)
Lemma PinInv_mono c s s' :
  PinInv c s -> pinned s' = pinned s -> (forall i, hcount (handles s) i <= hcount (handles s') i) ->
  (forall i, In i (map snd (idx s')) -> In i (map snd (idx s)) \/ 0 < hcount (handles s') i) ->
  PinInv c s'.
Proof.
  intros [H1 H2] Hp Hh Hi. constructor; rewrite Hp; [exact H1|].
  intros i Hi1 Hi2. destruct (Hi i Hi2) as [Hi3|]; [|assumption]. eapply N.lt_le_trans; [apply (H2 i Hi1 Hi3)|apply Hh].
Qed.

Lemma PinInv_trans c s s' : trans c s s' -> IdxInv s -> RefInv s -> PinInv c s -> PinInv c s'.
Proof.
  intros T HI HR HP. destruct T as [s r h _|s h i _|s i Hpos|s k i e _|s cap|s h].
  - (* admit: the new record is held *)
    apply (PinInv_mono c s _ HP); unfold admitted; sproj; [reflexivity|intros i; apply hcount_cons_le|].
    intros i Hi. destruct (rphantom r); [left; exact Hi|]. destruct Hi as [<-|Hi]; [right|left; exact Hi].
    rewrite hcount_cons, Nat.eqb_refl. lia.
  - (* hold *) apply (PinInv_mono c s _ HP); sproj; [reflexivity|intros j; apply hcount_cons_le|auto].
  - (* pin *) rewrite acquire_eq. constructor; sproj.
    + intros Hn. rewrite Hn. apply (pi_nopins c s HP Hn).
    + intros j Hj Hidx. destruct (_ && _); [destruct Hj as [<-|Hj]; [exact Hpos|]|]; apply (pi_live c s HP j); assumption.
  - (* leave *) apply (PinInv_mono c s _ HP); sproj; [reflexivity|reflexivity|].
    intros j Hj. left. eapply remove_key_map_snd_incl, Hj.
  - (* set_capacity *) apply (PinInv_mono c s _ HP); sproj; [reflexivity|reflexivity|auto].
  - (* drop *) rewrite drop_unfold. destruct (hlookup h (handles s)) as [i|] eqn:Hl; [|assumption]. cbv zeta.
    pose proof (ri_refs _ (RefInv_dropped s h i HR Hl) i) as Hri. sproj.
    (* Whatever [drop] does after taking the handle away, it adds no pin and the handles of the other records stay;
       as to [i]: it stays held, or is a phantom (never indexed), or is released. *)
    assert (HD : forall s', idx s' = idx s -> handles s' = hremove h (handles s) -> incl (pinned s') (pinned s) ->
                 (In i (pinned s') -> In i (map snd (idx s)) -> get_ref (dropped s h i) i <> 0) -> PinInv c s').
    { intros s' B C D Hi. destruct HP as [H1 H2]. constructor; rewrite ?B, ?C.
      - intros Hn. apply incl_l_nil. rewrite <- (H1 Hn). exact D.
      - intros j Hp Hj. pose proof (hcount_hremove h _ i j Hl) as Hc.
        destruct (Nat.eqb_spec i j) as [<-|Hne]; [specialize (Hi Hp Hj); lia|].
        specialize (H2 j (D j Hp) Hj). lia. }
    destruct (N.eqb_spec (get_ref (dropped s h i) i) 0) as [Ez|Ez]; [destruct (rphantom (get_rec s i)) eqn:Eph|].
    + apply HD; snorm; try reflexivity; [apply incl_refl|].
      intros _ Hin. destruct (phantom_not_indexed s i HI Eph Hin).
    + apply HD; snorm; try reflexivity.
      * destruct (_ && _); [|apply incl_refl]. intros j Hj. apply remove_id_In in Hj. tauto.
      * intros Hp Hin. exfalso. revert Hp. rewrite (proj2 (indexed_In (dropped s h i) i) Hin).
        destruct (pins c) eqn:Ep; cbn [andb]; [|rewrite (pi_nopins c s HP Ep); intros []].
        destruct (memb i (pinned s)) eqn:Em; [intros Hp; apply remove_id_In in Hp; tauto|apply memb_false, Em].
    + apply HD; try reflexivity; [apply incl_refl|auto].
Qed.

Record Inv (c : cfg) (s : shard) : Prop := {
  inv_idx : IdxInv s; inv_ref : RefInv s; inv_pin : PinInv c s }.

Lemma Inv_init c cap : Inv c (init_shard cap).
Proof. constructor; [apply IdxInv_init | apply RefInv_init | apply PinInv_init]. Qed.

Lemma Inv_trans c s s' : trans c s s' -> Inv c s -> Inv c s'.
Proof. intros T [A B D]. constructor; eauto using IdxInv_trans, RefInv_trans, PinInv_trans. Qed.

(* [evict_oracle] exactly, guards and victim list included (C05's minimality); [ShardSteps.evs] forgets both and also
   covers [flush_oracle] *)
Inductive evicts (c : cfg) (target : N) : shard -> list N -> shard -> Prop :=
| ev_stop s : usage s <= target \/ all_pinned s = true -> evicts c target s [] s
| ev_step s k i vs s' :
    target < usage s -> lookup k (idx s) = Some i -> memb i (pinned s) = false ->
    evicts c target (evict_one c s k i) vs s' -> evicts c target s (k :: vs) s'.

Lemma evict_oracle_spec c target vs : forall s s',
  evict_oracle c target vs s = Some s' <-> evicts c target s vs s'.
Proof.
  split.
  - revert s. induction vs as [|k vs IH]; intros s; simpl.
    + destruct (N.leb_spec (usage s) target); simpl; [intros [= <-]; constructor; auto|].
      destruct (all_pinned s) eqn:E; intros [= <-]. constructor; auto.
    + destruct (N.leb_spec (usage s) target); [discriminate|].
      destruct (lookup k (idx s)) as [i|] eqn:E2; [|discriminate].
      destruct (memb i (pinned s)) eqn:E3; [discriminate|]. intros Hv. econstructor; eauto.
  - induction 1 as [s [H|H]|s k i vs s' Hlt Hl Hm _ IH]; simpl.
    + apply N.leb_le in H. rewrite H. reflexivity.
    + rewrite H, orb_true_r. reflexivity.
    + apply N.leb_gt in Hlt. rewrite Hlt, Hl, Hm. exact IH.
Qed.

Lemma evicts_end c target s vs s' :
  evicts c target s vs s' -> usage s' <= target \/ all_pinned s' = true.
Proof. induction 1; auto. Qed.

From Coq Require Import List NArith Bool Arith Lia.
From FV Require Import Mem.Shard Mem.Cache Mem.ShardLemmas Mem.ShardSteps Mem.ShardInv Mem.ShardRefs.
Import ListNotations.
Open Scope N_scope.

Definition good (c : cfg) : Prop := bug_clear c = false /\ bug_touch c = false.

Lemma Inv_step c s o s' : good c -> Inv c s -> step c s o = Some s' -> Inv c s'.
Proof. intros [Hc Ht]. apply step_inv; [assumption|assumption|apply inv_idx|]. intros *. apply Inv_trans. Qed.

Lemma reach_inv c cap ops s : good c -> run c (init_shard cap) ops = Some s -> Inv c s.
Proof. intros Hg. apply run_inv; [intros *; apply Inv_step, Hg|apply Inv_init]. Qed.

Lemma evict_oracle_end c target vs s s' :
  evict_oracle c target vs s = Some s' ->
  capacity s' = capacity s /\ (usage s' <= target \/ forall k i, In (k, i) (idx s') -> In i (pinned s')).
Proof.
  intros He. destruct (evs_frame _ _ _ (evict_oracle_evs _ _ _ _ _ He)) as (_ & Hcap & _). split; [exact Hcap|].
  apply evict_oracle_spec, evicts_end in He. destruct He as [Hle|Hall]; [left; assumption|right].
  intros k i. apply all_pinned_In, Hall.
Qed.

Lemma victim_not_pinned c target vs s s' :
  evicts c target s vs s' -> forall k, In k vs ->
  exists i, lookup k (idx s) = Some i /\ ~ In i (pinned s).
Proof.
  induction 1 as [|s k i vs s' Hlt Hl Hm Hev IH]; intros k0 Hin; [destruct Hin|].
  destruct Hin as [->|Hin].
  - exists i. split; [assumption|]. apply memb_false. assumption.
  - destruct (IH k0 Hin) as [i0 [Hl0 Hp0]]. snorm.
    exists i0. split; [|assumption]. rewrite lookup_remove_key in Hl0. destruct (k =? k0); [discriminate|assumption].
Qed.

Lemma evicts_other_keys c target s vs s' k :
  evicts c target s vs s' -> ~ In k vs -> lookup k (idx s') = lookup k (idx s).
Proof.
  induction 1 as [|s k0 i vs s' _ _ _ _ IH]; intros Hn; [reflexivity|].
  rewrite IH by (intros H; apply Hn; right; exact H). snorm. rewrite lookup_remove_key.
  destruct (N.eqb_spec k0 k) as [->|]; [destruct Hn; left|]; reflexivity.
Qed.

Lemma exact_of_inv c s : Inv c s ->
  usage s = sum_weights s /\ entries s = N.of_nat (length (findable s)).
Proof.
  intros [[_ _ _ H4 H5] _ _]. split; [rewrite sum_weights_eq; assumption|].
  unfold findable. rewrite map_length. assumption.
Qed.

(* [N.min r (index + n) - N.min r index]: how many of the indices in [index, index + n) lie below the remainder [r]
   and get the extra unit *)
Lemma capacities_from_sum total shards : forall n index,
  fold_right N.add 0 (capacities_from total shards index n) =
  N.of_nat n * (total / shards) + (N.min (total mod shards) (index + N.of_nat n) - N.min (total mod shards) index).
Proof.
  induction n as [|n IH]; intros index; cbn [capacities_from fold_right].
  - rewrite N.add_0_r. lia.
  - rewrite IH. unfold shard_capacity_for. rewrite Nat2N.inj_succ, N.mul_succ_l.
    generalize (total / shards) (total mod shards) (N.of_nat n). intros b r m.
    generalize (m * b). intros mb. destruct (N.ltb_spec index r); lia.
Qed.

Lemma capacities_sum total n : (0 < n)%nat -> fold_right N.add 0 (capacities total n) = total.
Proof.
  intros Hn. unfold capacities. rewrite capacities_from_sum.
  assert (Hs : N.of_nat n <> 0) by lia.
  pose proof (N.mod_lt total (N.of_nat n) Hs) as Hlt.
  pose proof (N.div_mod total (N.of_nat n) Hs) as Hdm.
  revert Hlt Hdm. generalize (total / N.of_nat n) (total mod N.of_nat n). intros q r.
  generalize (N.of_nat n * q). intros nq Hlt Hdm. lia.
Qed.

Lemma insert_bounded c s k v w hsh low h vs s' :
  insert c s k v w hsh low false h vs = Some s' ->
  capacity s' = capacity s /\
  (usage s' <= capacity s' \/ capacity s' < w \/
   forall k' i', In (k', i') (idx s') -> i' <> length (arena s) -> In i' (pinned s')).
Proof.
  intros H. apply insert_spec in H. destruct H as (se & He & _ & ->).
  apply evict_oracle_end in He. destruct He as [Hcap He].
  unfold inserted; sproj. rewrite Hcap; sproj. split; [reflexivity|].
  destruct He as [Hle|Hall].
  - destruct (N.le_gt_cases w (capacity s)); [left|right; left; assumption].
    destruct (lookup k (idx se)); lia.
  - right; right. intros k' i' [[= <- <-]|Hin] Hne; [contradiction|].
    apply remove_key_In in Hin. apply (Hall k'), Hin.
Qed.

Lemma insert_no_leak c s k v w hsh low h vs s' :
  Inv c s -> handles s = [] -> insert c s k v w hsh low false h vs = Some s' ->
  usage s' <= capacity s' \/ capacity s' < w.
Proof.
  intros [HI HR HP] Hh Hins. apply insert_spec in Hins. destruct Hins as (se & He & Hevs & ->).
  pose proof (IdxInv_evs _ _ _ Hevs (IdxInv_alloc s _ HI)) as HIe.
  apply evict_oracle_end in He. destruct He as [Hcap [Hle|Hall]]; unfold inserted; sproj; rewrite Hcap; sproj.
  - destruct (N.le_gt_cases w (capacity s)); [left|right; assumption]. destruct (lookup k (idx se)); lia.
  - (* the loop stopped with every resident pinned; a pinned resident has a handle, and there is none: so nothing
       is resident, and the new record is alone *)
    destruct (idx se) as [|[k' i'] l] eqn:E.
    + pose proof (ii_usage se HIe) as Hu. rewrite E in Hu. cbn [lookup]. rewrite Hu. cbn [sumw fold_right]. lia.
    + exfalso. assert (Hin : In (k', i') (idx s)) by (apply (evs_frame _ _ _ Hevs); rewrite E; left; reflexivity).
      assert (Hpin : In i' (pinned s)) by (rewrite <- (evs_pinned _ _ _ Hevs : pinned se = pinned s); apply (Hall k'); left; reflexivity).
      pose proof (pi_live c s HP i' Hpin (in_map snd _ _ Hin)) as Hpos.
      rewrite Hh in Hpos. exact (N.lt_irrefl _ Hpos).
Qed.

(* operation by operation, not by [step_inv]: it holds of the defective touch as well (c18_stable has no [good]) *)
Lemma step_arena_prefix c s o s' : step c s o = Some s' -> exists l, arena s' = arena s ++ l.
Proof.
  assert (Hsame : forall s s' : shard, arena s' = arena s -> exists l, arena s' = arena s ++ l).
  { intros x x' ->. exists []. symmetry. apply app_nil_r. }
  destruct o; simpl; intros H; try (injection H as <-).
  - (* insert *) apply insert_spec in H. destruct H as (se & _ & He & ->).
    unfold inserted; sproj. rewrite (evs_arena _ _ _ He). eexists. reflexivity.
  - (* get *) apply Hsame, (proj1 (get_frame c s k h)).
  - (* touch *) apply Hsame. unfold touch. destruct (bug_touch c).
    + destruct (lookup k (idx s)); snorm; reflexivity.
    + rewrite (proj1 (drop_frame _ _ _)). apply (proj1 (get_frame c s k h)).
  - (* contains *) apply Hsame. reflexivity.
  - (* remove *) apply Hsame. unfold remove. destruct (lookup k (idx s)); reflexivity.
  - (* clear *) apply Hsame. rewrite clear_eq. reflexivity.
  - (* resize *) apply Hsame, (evs_arena c (set_capacity s cap)), (evict_oracle_evs _ _ _ _ _ H).
  - (* evict_all *) apply Hsame, (evs_arena c), (evict_oracle_evs _ _ _ _ _ H).
  - (* flush *) apply Hsame, (evs_arena c), (proj1 (flush_oracle_evs _ _ _ _ H)).
  - (* clone *) apply Hsame. unfold clone. destruct (hlookup h (handles s)); reflexivity.
  - (* drop *) apply Hsame, (proj1 (drop_frame c s h)).
Qed.

Lemma run_arena_prefix c ops s s' : run c s ops = Some s' -> exists l, arena s' = arena s ++ l.
Proof.
  apply (run_inv c (fun x => exists l, arena x = arena s ++ l)); [|exists []; symmetry; apply app_nil_r].
  intros x o x' [l Hl] Hs. destruct (step_arena_prefix _ _ _ _ Hs) as [l' ->].
  exists (l ++ l'). rewrite Hl, app_assoc. reflexivity.
Qed.

Lemma run_record_stable c ops s s' i :
  run c s ops = Some s' -> (i < length (arena s))%nat -> get_rec s' i = get_rec s i.
Proof.
  intros H Hi. destruct (run_arena_prefix _ _ _ _ H) as [l Hl]. unfold get_rec. rewrite Hl. apply app_nth1, Hi.
Qed.

Lemma step_record_stable c s o s' i :
  step c s o = Some s' -> (i < length (arena s))%nat -> get_rec s' i = get_rec s i.
Proof. intros H. apply (run_record_stable c [o]). simpl. rewrite H. reflexivity. Qed.

Lemma outdated_iff s i : IdxInv s ->
  (is_outdated s i = true <-> lookup (rkey (get_rec s i)) (idx s) <> Some i).
Proof.
  intros HI. unfold is_outdated. rewrite negb_true_iff, <- not_true_iff_false, indexed_In.
  apply not_iff_compat, IdxInv_indexed, HI.
Qed.

Lemma acquire_keeps_pins c s j i : In i (pinned s) -> In i (pinned (acquire c s j)).
Proof. intros Hp. snorm. destruct (_ && _); [right|]; assumption. Qed.

Lemma get_keeps_pins c s k h i : In i (pinned s) -> In i (pinned (get c s k h)).
Proof. intros Hp. unfold get. destruct (lookup k (idx s)); [apply acquire_keeps_pins|]; exact Hp. Qed.

Lemma get_pins c s k h i : pins c = true -> lookup k (idx s) = Some i -> In i (pinned (get c s k h)).
Proof.
  intros Hp Hl. unfold get. rewrite Hl, acquire_eq, Hp. sproj.
  destruct (memb i (pinned s)) eqn:E; [rewrite andb_false_r; apply memb_In, E|].
  rewrite (proj2 (indexed_In _ i)); [left; reflexivity|].
  apply (in_map snd _ (k, i)), lookup_In, Hl.
Qed.

Lemma drop_keeps_pins c s h i : In i (pinned s) -> In i (pinned (drop c s h)) \/ get_ref (drop c s h) i = 0.
Proof.
  intros Hp. rewrite drop_unfold. destruct (hlookup h (handles s)) as [j|]; [|left; assumption]. cbv zeta.
  destruct (N.eqb (get_ref (dropped s h j) j) 0) eqn:Ez; [|left; assumption].
  destruct (rphantom _); snorm; [left; assumption|].
  destruct (_ && _); [|left; assumption].
  destruct (Nat.eq_dec i j) as [->|Hne]; [right; apply N.eqb_eq, Ez|left; apply remove_id_In; auto].
Qed.

(* operation by operation, like [step_arena_prefix] and for the same reason *)
Lemma pinned_persists c s o s' i :
  step c s o = Some s' -> In i (pinned s) -> In i (pinned s') \/ get_ref s' i = 0.
Proof.
  intros H Hp.
  destruct o; simpl in H; try (injection H as <-).
  - (* insert *) left. apply insert_spec in H. destruct H as (se & _ & He & ->).
    unfold inserted; sproj. rewrite (evs_pinned _ _ _ He). assumption.
  - (* get *) left. apply get_keeps_pins, Hp.
  - (* touch *) unfold touch. destruct (bug_touch c); [left|apply drop_keeps_pins, get_keeps_pins, Hp].
    destruct (lookup k (idx s)); [apply acquire_keeps_pins|]; exact Hp.
  - (* contains *) left. assumption.
  - (* remove *) left. unfold remove. destruct (lookup k (idx s)); assumption.
  - (* clear *) left. rewrite clear_eq. assumption.
  - (* resize *) left. rewrite (evs_pinned _ _ _ (evict_oracle_evs _ _ _ _ _ H)). assumption.
  - (* evict_all *) left. rewrite (evs_pinned _ _ _ (evict_oracle_evs _ _ _ _ _ H)). assumption.
  - (* flush *) left. rewrite (evs_pinned _ _ _ (proj1 (flush_oracle_evs _ _ _ _ H))). assumption.
  - (* clone *) left. unfold clone. destruct (hlookup h (handles s)); assumption.
  - (* drop *) apply drop_keeps_pins, Hp.
Qed.

Definition CInv (c : cfg) (cs : cache) : Prop := Forall (Inv c) cs.

Lemma upd_opt_Forall (P : shard -> Prop) i f : forall cs cs',
  Forall P cs -> (forall s s', P s -> f s = Some s' -> P s') -> upd_opt i f cs = Some cs' -> Forall P cs'.
Proof.
  induction i as [|i IH]; intros [|x l] cs' HF Hf; simpl; try discriminate.
  - destruct (f x) as [x'|] eqn:E; [|discriminate]. intros H; inversion H; subst.
    inversion HF; subst. constructor; eauto.
  - destruct (upd_opt i f l) as [l'|] eqn:E; [|discriminate]. intros H; inversion H; subst.
    inversion HF; subst. constructor; eauto.
Qed.

Lemma map_opt_from_Forall (P : shard -> Prop) f : forall cs i cs',
  Forall P cs -> (forall j s s', P s -> f j s = Some s' -> P s') -> map_opt_from i f cs = Some cs' -> Forall P cs'.
Proof.
  induction cs as [|x l IH]; intros i cs' HF Hf; simpl.
  - intros H; inversion H; constructor.
  - destruct (f i x) as [x'|] eqn:E; [|discriminate].
    destruct (map_opt_from (S i) f l) as [l'|] eqn:E2; [|discriminate].
    intros H; inversion H; subst. inversion HF; subst. constructor; eauto.
Qed.

Lemma CInv_cstep hash c cs o cs' : good c -> CInv c cs -> cstep hash c cs o = Some cs' -> CInv c cs'.
Proof.
  intros Hg HI. unfold CInv in *.
  pose proof (fun s o s' => Inv_step c s o s' Hg) as Hstep.
  (* the operations on one key's shard; those on every shard; those on the shard that knows the handle *)
  destruct o; cbn [cstep]; intros H.
  1-5: (eapply upd_opt_Forall; [exact HI| |exact H]; intros s s' Hs; apply Hstep, Hs).
  1-4: (eapply map_opt_from_Forall; [exact HI| |exact H]; intros j s s' Hs; apply Hstep, Hs).
  all: eapply map_opt_from_Forall; [exact HI| |exact H]; cbv beta; intros j s s' Hs.
  all: destruct (has_handle h s); [apply Hstep, Hs|intros [= <-]; exact Hs].
Qed.

Lemma CInv_init c total n : CInv c (init_cache total n).
Proof.
  apply Forall_map, Forall_forall. intros cap _. apply Inv_init.
Qed.

Lemma CInv_crun hash c ops : forall cs cs', good c -> CInv c cs -> crun hash c cs ops = Some cs' -> CInv c cs'.
Proof.
  induction ops as [|o ops IH]; intros cs cs' Hg HI; simpl.
  - intros [= <-]. assumption.
  - destruct (cstep hash c cs o) as [cs1|] eqn:Hs; [|discriminate]. eauto using CInv_cstep.
Qed.

From Coq Require Import List NArith Bool Lia Permutation.
Import ListNotations.
Open Scope N_scope.

Inductive kind := KWrite (v : N) | KDelete | KRead (r : option N).
(* one completed operation on one key; [einv], [eret]: stamps of invocation and response from a global clock.
   Algo.v has an [eid] of its own (a field of [ent]): a file that imports both gets whichever came last. *)
Record ev := mkEv { eid : N; ekind : kind; einv : N; eret : N }.

Definition is_upd (e : ev) : bool := match ekind e with KWrite _ | KDelete => true | KRead _ => false end.

(* reads may miss: [KRead None] is legal in every state *)
Definition apply (st : option N) (e : ev) : option N :=
  match ekind e with KWrite v => Some v | KDelete => None | KRead _ => st end.
Definition legal (st : option N) (e : ev) : Prop :=
  match ekind e with KRead (Some v) => st = Some v | _ => True end.
Fixpoint seq_ok (st : option N) (l : list ev) : Prop :=
  match l with [] => True | e :: l' => legal st e /\ seq_ok (apply st e) l' end.

Definition rt_ok (lin : list ev) : Prop :=
  forall l1 a l2 b l3, lin = l1 ++ a :: l2 ++ b :: l3 -> ~ (eret b < einv a).

Definition linearizable (h : list ev) : Prop :=
  exists lin, Permutation lin h /\ rt_ok lin /\ seq_ok None lin.

(* a necessary condition only: sound ([check_sound]), not complete *)
Definition shadowed (h : list ev) (w r : ev) : bool :=
  existsb (fun o => is_upd o && negb (eid o =? eid w) && (eret w <? einv o) && (eret o <? einv r)) h.
Definition read_ok (h : list ev) (r : ev) : bool :=
  match ekind r with
  | KRead (Some v) =>
      existsb (fun w => match ekind w with
                        | KWrite v' => (v' =? v) && (einv w <=? eret r) && negb (shadowed h w r)
                        | _ => false
                        end) h
  | _ => true
  end.
Definition check (h : list ev) : bool := forallb (read_ok h) h.

Lemma read_source st p1 r p2 v : seq_ok st (p1 ++ r :: p2) -> ekind r = KRead (Some v) ->
  (st = Some v /\ Forall (fun e => is_upd e = false) p1) \/
  exists l1 w l2, p1 = l1 ++ w :: l2 /\ ekind w = KWrite v /\ Forall (fun e => is_upd e = false) l2.
Proof.
  intros H Hk. revert st H. induction p1 as [|e p1 IH]; intros st [Hl Hs]; cbn [app] in *.
  - left. unfold legal in Hl. rewrite Hk in Hl. auto.
  - destruct (IH _ Hs) as [[Ha Hn]|(l1 & w & l2 & -> & Hw & Hn)]; [|right; exists (e :: l1), w, l2; auto].
    unfold apply in Ha. destruct (ekind e) as [v'| |r'] eqn:Ek; [injection Ha as ->; right; exists [], e, p1; auto|discriminate|].
    left. split; [exact Ha|]. constructor; [unfold is_upd; rewrite Ek; reflexivity|exact Hn].
Qed.

(* the shape [rt_ok] speaks of, for an argument by pairs of events; [check_sound] splits at the read instead ([rt_ok_at]) *)
Lemma in_split_two (l : list ev) a b :
  In a l -> In b l -> a <> b ->
  (exists l1 l2 l3, l = l1 ++ a :: l2 ++ b :: l3) \/ (exists l1 l2 l3, l = l1 ++ b :: l2 ++ a :: l3).
Proof.
  intros Ha Hb Hne. apply in_split in Ha. destruct Ha as [l1 [l2 E]]. subst.
  apply in_app_or in Hb. destruct Hb as [Hb|[Hb|Hb]]; [|congruence|].
  - apply in_split in Hb. destruct Hb as [m1 [m2 E]]. subst. right. exists m1, m2, l2. rewrite <- app_assoc. reflexivity.
  - apply in_split in Hb. destruct Hb as [m1 [m2 E]]. subst. left. exists l1, m1, m2. reflexivity.
Qed.

Lemma rt_ok_at l1 a l2 b : rt_ok (l1 ++ a :: l2) ->
  (In b l1 -> ~ eret a < einv b) /\ (In b l2 -> ~ eret b < einv a).
Proof.
  intros Hrt. split; intros Hb; apply in_split in Hb; destruct Hb as [m1 [m2 ->]].
  - apply (Hrt m1 b m2 a l2). rewrite <- app_assoc. reflexivity.
  - apply (Hrt l1 a m1 b m2). reflexivity.
Qed.

(* needs no assumption on the events' ids *)
Theorem check_sound h : linearizable h -> check h = true.
Proof.
  intros [lin [Hp [Hrt Hseq]]]. unfold check. apply forallb_forall. intros r Hr.
  unfold read_ok. destruct (ekind r) as [| |[v|]] eqn:Hk; auto.
  (* r reads v: split the linearization at r; the last update before r is a write w of v *)
  apply (Permutation_in _ (Permutation_sym Hp)), in_split in Hr. destruct Hr as [p1 [p2 El]].
  rewrite El in Hseq. destruct (read_source _ _ _ _ _ Hseq Hk) as [[Hn _]|[l1 [w [l2 [-> [Hw Hnu]]]]]]; [discriminate|].
  (* lin = l1 ++ w :: l2 ++ r :: p2: real time, seen from r and from w *)
  subst lin. pose proof (fun b => rt_ok_at _ _ _ b Hrt) as Hrt_r.
  rewrite <- app_assoc in Hrt, Hp. cbn [app] in Hrt, Hp. pose proof (fun b => rt_ok_at _ _ _ b Hrt) as Hrt_w.
  apply existsb_exists. exists w. split; [apply (Permutation_in _ Hp), in_elt|].
  rewrite Hw, N.eqb_refl. cbn [andb]. apply andb_true_iff. split.
  - (* w was invoked before r responded *)
    apply N.leb_le. specialize (proj1 (Hrt_r w) (in_elt _ _ _)). lia.
  - (* an update o strictly between w and r in real time would have to stand behind w and before r in lin:
       but nothing there is an update *)
    apply negb_true_iff, not_true_is_false. unfold shadowed. intros Hex.
    apply existsb_exists in Hex. destruct Hex as [o [Ho Hc]].
    apply andb_prop in Hc as [Hc Hor]. apply andb_prop in Hc as [Hc Hwo]. apply andb_prop in Hc as [Hu Hne].
    apply N.ltb_lt in Hor, Hwo. apply negb_true_iff, N.eqb_neq in Hne.
    apply (Permutation_in _ (Permutation_sym Hp)), in_app_or in Ho.
    destruct Ho as [Ho|[->|Ho]]; [apply Hrt_w in Ho; auto|auto|].
    apply in_app_or in Ho. destruct Ho as [Ho|[->|Ho]].
    + rewrite Forall_forall in Hnu. rewrite (Hnu _ Ho) in Hu. discriminate.
    + unfold is_upd in Hu. rewrite Hk in Hu. discriminate.
    + apply Hrt_r in Ho. auto.
Qed.

(* the last read overlaps the write it reads *)
Example check_accepts :
  check [mkEv 1 (KWrite 7) 1 2; mkEv 2 (KRead (Some 7)) 3 4; mkEv 3 KDelete 5 6; mkEv 4 (KRead None) 7 8;
         mkEv 5 (KWrite 9) 9 12; mkEv 6 (KRead (Some 9)) 10 11] = true.
Proof. reflexivity. Qed.

(* the rejected histories of c02_checker_discriminates (Props/C02.v) *)
Example check_rejects_stale :
  check [mkEv 1 (KWrite 7) 1 2; mkEv 2 (KWrite 8) 3 4; mkEv 3 (KRead (Some 7)) 5 6] = false /\
  check [mkEv 1 (KWrite 7) 1 2; mkEv 2 KDelete 3 4; mkEv 3 (KRead (Some 7)) 5 6] = false /\
  check [mkEv 3 (KRead (Some 7)) 1 2; mkEv 1 (KWrite 7) 3 4] = false.
Proof. repeat split; reflexivity. Qed.

(* [p]: the point, inside the shard lock's critical section, at which the operation takes effect *)
Fixpoint points_ok (last : N) (l : list (ev * N)) : Prop :=
  match l with
  | [] => True
  | (e, p) :: l' => last < p /\ einv e <= p /\ p <= eret e /\ points_ok p l'
  end.

Lemma points_split l1 : forall last l a r, points_ok last l -> map fst l = l1 ++ a :: r ->
  exists p l', last < p /\ einv a <= p <= eret a /\ points_ok p l' /\ map fst l' = r.
Proof.
  induction l1 as [|x l1 IH]; intros last [|[e p] l] a r; cbn [map app points_ok fst]; try discriminate;
    intros (H1 & H2 & H3 & H4) [= <- E].
  - exists p, l. auto.
  - destruct (IH _ _ _ _ H4 E) as (p' & l' & Hlt & H). exists p', l'. split; [lia|exact H].
Qed.

Theorem atomic_points_linearizable last (l : list (ev * N)) :
  points_ok last l -> seq_ok None (map fst l) -> linearizable (map fst l).
Proof.
  intros Hp Hs. exists (map fst l). split; [reflexivity|]. split; auto.
  intros l1 a l2 b l3 E Hlt.
  (* a precedes b in effect order: a's point is before b's, so b cannot have responded before a was invoked *)
  destruct (points_split _ _ _ _ _ Hp E) as (pa & l' & _ & Ha & Hp' & E').
  destruct (points_split _ _ _ _ _ Hp' E') as (pb & _ & Hab & Hb & _). lia.
Qed.

From Coq Require Import List NArith Bool Arith Lia.
From FV Require Import Base.ListX Mem.Shard Mem.ShardLemmas Mem.ShardSteps Mem.ShardInv Mem.ShardRefs Mem.ShardThms.
Import ListNotations.
Open Scope N_scope.

Definition ecount (l : list (event * id)) (i : id) : nat :=
  length (filter (fun p : event * id => Nat.eqb (snd p) i) l).

Definition evicted_ids (l : list (event * id)) : list id :=
  map snd (filter (fun p : event * id => event_eqb (fst p) EvEvict) l).

Lemma event_count_eq s i : event_count s i = ecount (elog s) i.
Proof. reflexivity. Qed.

Lemma ecount_app l l' i : ecount (l ++ l') i = (ecount l i + ecount l' i)%nat.
Proof. unfold ecount. rewrite filter_app, app_length. reflexivity. Qed.

Lemma ecount_snoc l e j i : ecount (l ++ [(e, j)]) i = (ecount l i + if Nat.eqb j i then 1 else 0)%nat.
Proof. rewrite ecount_app. unfold ecount at 2. simpl. destruct (Nat.eqb j i); reflexivity. Qed.

Lemma evicted_ids_app l l' : evicted_ids (l ++ l') = evicted_ids l ++ evicted_ids l'.
Proof. unfold evicted_ids. rewrite filter_app, map_app. reflexivity. Qed.

Lemma evicted_ids_snoc l e i :
  evicted_ids (l ++ [(e, i)]) = if event_eqb e EvEvict then evicted_ids l ++ [i] else evicted_ids l.
Proof.
  rewrite evicted_ids_app. unfold evicted_ids at 2. cbn [filter fst].
  destruct (event_eqb e EvEvict); cbn [map snd]; [reflexivity|apply app_nil_r].
Qed.

(* [ei_phantom]: 1 = the Remove at insertion; 2 = that and the Evict at the last drop.  [ei_bound]: so that a freshly
   allocated id starts with no event *)
Record EvInv (c : cfg) (s : shard) : Prop := {
  ei_indexed : forall i, In i (map snd (idx s)) -> ecount (elog s) i = 0%nat;
  ei_left : forall i, (i < length (arena s))%nat -> rphantom (get_rec s i) = false ->
            ~ In i (map snd (idx s)) -> ecount (elog s) i = 1%nat;
  ei_phantom : forall i, (i < length (arena s))%nat -> rphantom (get_rec s i) = true ->
               ecount (elog s) i = if N.eqb (get_ref s i) 0 then 2%nat else 1%nat;
  ei_bound : forall e i, In (e, i) (elog s) -> (i < length (arena s))%nat;
  ei_pipe : plog s = if piped c then evicted_ids (elog s) else [] }.

Lemma EvInv_init c cap : EvInv c (init_shard cap).
Proof.
  constructor; simpl; intros; try lia; try tauto. destruct (piped c); reflexivity.
Qed.

Lemma EvInv_leave c s k i e :
  IdxInv s -> EvInv c s -> lookup k (idx s) = Some i -> EvInv c (leave c s k i e).
Proof.
  intros HI [H1 H2 H3 H4 H5] Hl.
  destruct (IdxInv_lookup s k i HI Hl) as (Hlt & Hk & Hph).
  pose proof (fun j => remove_key_ids k (idx s) i j (ii_keys s HI) (ii_ids s HI) Hl) as Hids.
  constructor; unfold get_rec, get_ref in *; sproj.
  - (* ei_indexed *) intros j Hj. apply Hids in Hj. rewrite ecount_snoc, H1 by apply Hj.
    destruct (Nat.eqb_spec i j); [destruct Hj; congruence|reflexivity].
  - (* ei_left *) intros j Hj Hp Hn. rewrite Hids in Hn. rewrite ecount_snoc.
    destruct (Nat.eqb_spec i j) as [->|Hne].
    + rewrite H1; [reflexivity|]. apply (in_map snd _ _ (lookup_In _ _ _ Hl)).
    + rewrite H2; auto.
  - (* ei_phantom *) intros j Hj Hp. rewrite ecount_snoc.
    destruct (Nat.eqb_spec i j) as [->|Hne]; [congruence|].
    rewrite H3 by assumption. lia.
  - (* ei_bound *) intros e' j [Hin'|[= _ ->]]%In_snoc; eauto.
  - (* ei_pipe *) rewrite H5, evicted_ids_snoc. destruct (event_eqb e EvEvict), (piped c); reflexivity.
Qed.

Lemma EvInv_admitted c s r h : IdxInv s -> RefInv s -> EvInv c s -> EvInv c (admitted s r h).
Proof.
  intros HI HR [H1 H2 H3 H4 H5]. set (s' := admitted s r h). set (n := length (arena s)) in *.
  assert (Hn0 : ecount (elog s) n = 0%nat) by (unfold ecount; rewrite filter_none; [reflexivity|]; intros [e i] Hin; apply H4 in Hin; apply Nat.eqb_neq; cbn; lia).
  assert (Hlen : length (arena s') = S n) by (unfold s', admitted; sproj; rewrite app_length; simpl; lia).
  assert (Hrec : forall i, (i < n)%nat -> get_rec s' i = get_rec s i) by (intros i Hi; apply app_nth1, Hi).
  assert (Hnew : get_rec s' n = r) by apply nth_middle.
  assert (Href : forall i, (i < n)%nat -> get_ref s' i = get_ref s i).
  { intros i Hi. unfold get_ref, s', admitted; sproj. rewrite nth_upd_other by (fold n; lia).
    apply app_nth1. rewrite (ri_len s HR). exact Hi. }
  assert (Hrefn : get_ref s' n = 1).
  { unfold get_ref, s', admitted; sproj. fold n. rewrite nth_upd_same by (rewrite app_length, (ri_len s HR); simpl; fold n; lia).
    unfold n. rewrite <- (ri_len s HR), nth_middle. reflexivity. }
  assert (Hids : forall i, In i (map snd (idx s')) <-> (i = n /\ rphantom r = false) \/ In i (map snd (idx s))).
  { intros i. unfold s', admitted; sproj. fold n. destruct (rphantom r); cbn [map snd In]; intuition congruence. }
  assert (Hlog : forall i, ecount (elog s') i = (ecount (elog s) i + if rphantom r && Nat.eqb n i then 1 else 0)%nat).
  { intros i. unfold s', admitted; sproj. fold n. destruct (rphantom r); cbn [andb]; [apply ecount_snoc|lia]. }
  assert (Hold : forall i, (i < n)%nat -> ecount (elog s') i = ecount (elog s) i).
  { intros i Hi. rewrite Hlog. destruct (Nat.eqb_spec n i); [lia|]. rewrite andb_false_r. lia. }
  constructor; rewrite ?Hlen.
  - (* ei_indexed *) intros i Hi. apply Hids in Hi. destruct Hi as [[-> Hp]|Hi].
    + rewrite Hlog, Hp, Hn0. reflexivity.
    + rewrite Hold, H1; auto. apply (IdxInv_in_arena s i HI Hi).
  - (* ei_left *) intros i Hi Hp Hni. rewrite Hids in Hni. destruct (Nat.eq_dec i n) as [->|Hne].
    + rewrite Hnew in Hp. tauto.
    + rewrite Hrec in Hp by lia. rewrite Hold by lia. apply H2; [lia|assumption|tauto].
  - (* ei_phantom *) intros i Hi Hp. destruct (Nat.eq_dec i n) as [->|Hne].
    + rewrite Hnew in Hp. rewrite Hlog, Hp, Hrefn, Hn0, Nat.eqb_refl. reflexivity.
    + rewrite Hrec in Hp by lia. rewrite Href, Hold by lia. apply H3; [lia|assumption].
  - (* ei_bound *) intros e i. unfold s', admitted; sproj. fold n. destruct (rphantom r); [rewrite in_app_iff|]; intros Hin.
    + destruct Hin as [Hin|[[= _ <-]|[]]]; [apply H4 in Hin|]; lia.
    + apply H4 in Hin. lia.
  - (* ei_pipe *) unfold s', admitted; sproj. rewrite H5. destruct (piped c); [|reflexivity].
    destruct (rphantom r); [rewrite evicted_ids_snoc|]; reflexivity.
Qed.

Lemma EvInv_refs_only c s s' :
  arena s' = arena s -> idx s' = idx s -> elog s' = elog s -> plog s' = plog s ->
  (forall j, (j < length (arena s))%nat -> rphantom (get_rec s j) = true ->
             N.eqb (get_ref s' j) 0 = N.eqb (get_ref s j) 0) ->
  EvInv c s -> EvInv c s'.
Proof.
  intros A B E F D [H1 H2 H3 H4 H5].
  constructor; unfold get_rec in *; rewrite ?A, ?B, ?E, ?F; auto.
  intros j Hj Hp. rewrite (D j Hj Hp). auto.
Qed.

Lemma EvInv_phantom_evict c s s' i :
  IdxInv s -> EvInv c s -> (i < length (arena s))%nat -> rphantom (get_rec s i) = true -> get_ref s i <> 0 ->
  arena s' = arena s -> idx s' = idx s -> get_ref s' i = 0 -> (forall j, j <> i -> get_ref s' j = get_ref s j) ->
  elog s' = elog s ++ [(EvEvict, i)] -> plog s' = (if piped c then plog s ++ [i] else plog s) ->
  EvInv c s'.
Proof.
  intros HI [H1 H2 H3 H4 H5] Hlt Hph Hnz A B Z D E F.
  pose proof (phantom_not_indexed s i HI Hph) as Hni.
  assert (Hbefore : ecount (elog s) i = 1%nat).
  { rewrite (H3 i Hlt Hph). destruct (N.eqb_spec (get_ref s i) 0); [contradiction|reflexivity]. }
  constructor; unfold get_rec in *; rewrite ?A, ?B, ?E.
  - intros j Hj. rewrite ecount_snoc.
    destruct (Nat.eqb_spec i j) as [->|Hne]; [contradiction|]. rewrite H1 by assumption. reflexivity.
  - intros j Hj Hp Hn. rewrite ecount_snoc.
    destruct (Nat.eqb_spec i j) as [->|Hne]; [congruence|]. rewrite H2 by assumption. reflexivity.
  - intros j Hj Hp. rewrite ecount_snoc. destruct (Nat.eqb_spec i j) as [->|Hne].
    + rewrite Z, Hbefore. reflexivity.
    + rewrite (D j) by auto. rewrite H3 by assumption. lia.
  - intros e j [Hin|[= _ ->]]%In_snoc; eauto.
  - rewrite F, H5. destruct (piped c); [|reflexivity]. rewrite evicted_ids_snoc. reflexivity.
Qed.

Lemma EvInv_trans c s s' : trans c s s' -> IdxInv s -> RefInv s -> EvInv c s -> EvInv c s'.
Proof.
  intros T HI HR HE. destruct T as [s r h _|s h i Hi|s i _|s k i e Hl|s cap|s h].
  - (* admit *) apply EvInv_admitted; assumption.
  - (* hold: a resident is no phantom; a held record's count is not zero before, nor after *)
    eapply EvInv_refs_only; [..|exact HE]; try reflexivity.
    intros j Hj Hp. unfold get_ref in *; sproj.
    destruct (Nat.eq_dec i j) as [->|Hne]; [|rewrite nth_upd_other by assumption; reflexivity].
    destruct Hi as [[k Hl]|[h0 Hl]]; [destruct (IdxInv_lookup s k j HI Hl) as (_ & _ & Hph); congruence|].
    destruct (held_ref s h0 j HR Hl) as [Hlt Hpos]. rewrite nth_upd_same by (rewrite (ri_len s HR); assumption).
    transitivity false; [|symmetry]; apply N.eqb_neq; unfold get_ref in Hpos; lia.
  - (* pin *) eapply EvInv_refs_only; [..|exact HE]; rewrite ?acquire_eq; reflexivity.
  - (* leave *) apply EvInv_leave; assumption.
  - (* set_capacity *) eapply EvInv_refs_only; [..|exact HE]; reflexivity.
  - (* drop *) rewrite drop_unfold. destruct (hlookup h (handles s)) as [i|] eqn:Hl; [|assumption]. cbv zeta.
    destruct (held_ref s h i HR Hl) as [Hlt Hpos].
    assert (Hd : get_ref (dropped s h i) i = get_ref s i - 1).
    { unfold get_ref; sproj. rewrite nth_upd_same by (rewrite (ri_len s HR); assumption). reflexivity. }
    destruct (N.eqb (get_ref (dropped s h i) i) 0) eqn:Ez; [destruct (rphantom (get_rec s i)) eqn:Eph|].
    + (* last handle of a phantom: Evict + pipe *)
      eapply (EvInv_phantom_evict c s _ i HI HE Hlt Eph); rewrite ?add_pipe_eq; try reflexivity;
        [lia|apply N.eqb_eq, Ez|apply dropped_ref_other].
    + (* last handle of an admitted record: release only *)
      eapply EvInv_refs_only with (s := s); [..|exact HE]; rewrite ?release_eq; try reflexivity.
      intros j Hj Hp. f_equal. apply dropped_ref_other. intros ->. congruence.
    + (* still referenced *)
      eapply EvInv_refs_only with (s := s); [..|exact HE]; try reflexivity.
      intros j Hj Hp. destruct (Nat.eq_dec j i) as [->|Hne]; [|rewrite dropped_ref_other by assumption; reflexivity].
      rewrite Ez. symmetry. apply N.eqb_neq. lia.
Qed.

Lemma EvInv_run c ops : forall s s',
  good c -> Inv c s -> EvInv c s -> run c s ops = Some s' -> EvInv c s'.
Proof.
  intros s s' [Hc Ht] HI HE H.
  apply (run_inv c (fun x => Inv c x /\ EvInv c x)) with (s' := s') in H; [tauto| |tauto].
  apply step_inv; [assumption|assumption|intros x [Hx _]; apply Hx|]. intros x x' T [Hx E].
  split; [apply (Inv_trans c x x' T Hx)|destruct Hx; eapply EvInv_trans; eauto].
Qed.

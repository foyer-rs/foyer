(* C14  Victims are chosen as the configured eviction algorithm prescribes.
   The executable models of Mem/Algo.v are the formalisation of the documented algorithms and are
   compared with the real code's eviction order on every run (correspondence).  The theorems here
   state what the models guarantee in the property's own terms, and the membership laws that let the generic theorems
   (C05, C13, C18) apply to the containers. *)
From Coq Require Import List NArith Permutation Lia.
From FV Require Import Base.ListX Mem.Algo Mem.Concrete Mem.AlgoThms Mem.SieveThms Mem.S3Thms Mem.LfuThms.
Import ListNotations.
Open Scope N_scope.

(* determinism: the victim sequence is a function of the operation sequence *)
Theorem c14_deterministic : forall bucket c s ops r1 r2,
  crun1 bucket c s ops = r1 -> crun1 bucket c s ops = r2 -> r1 = r2.
Proof. intros; congruence. Qed.
Print Assumptions c14_deterministic.

(* FIFO evicts in insertion order: the victim has the smallest id (allocation number) *)
Theorem c14_fifo_spec : forall q e q',
  fifo_sorted q -> fifo_pop q = Some (e, q') ->
  q = e :: q' /\ fifo_sorted q' /\ forall x, In x q' -> (eid e < eid x)%nat.
Proof.
  intros q e q' Hs. unfold fifo_pop. destruct q as [|y q]; [discriminate|]. intros [= <- <-].
  inversion Hs as [|? ? Hs' Hall]; subst. rewrite Forall_forall in Hall. auto.
Qed.
Print Assumptions c14_fifo_spec.

(* pushing a record newer than all queued ones and removing any record keep the queue in insertion order *)
Theorem c14_fifo_push_remove_sorted : forall q e i,
  fifo_sorted q -> (forall x, In x q -> (eid x < eid e)%nat) ->
  fifo_sorted (fifo_push q e) /\ fifo_sorted (fifo_remove q i).
Proof. intros; split; [apply ListX.StronglySorted_snoc | apply fifo_remove_sorted]; assumption. Qed.
Print Assumptions c14_fifo_push_remove_sorted.

(* LRU: low-priority entries first, then the oldest high-priority one; never a pinned record *)
Theorem c14_lru_pop : forall s e s',
  LruInv s -> lru_pop s = Some (e, s') ->
  LruInv s' /\ l_pin s' = l_pin s /\
  ((l_low s = e :: l_low s' /\ l_high s' = l_high s) \/
   (l_low s = [] /\ l_low s' = [] /\ l_high s = e :: l_high s')).
Proof.
  intros s e s' [Hw]. unfold lru_pop. destruct (l_low s) as [|x low']; [destruct (l_high s) as [|y high']; [discriminate|]|];
    intros [= <- <-]; (split; [constructor|]); cbn [l_low l_high l_pin l_hpw]; auto.
  rewrite Hw. apply N.add_sub_eq_l. reflexivity.
Qed.
Print Assumptions c14_lru_pop.

(* LRU keeps at most the configured share in the high-priority pool; the overflow goes, oldest
   first and in order, to the most-recent end of the low-priority list *)
Theorem c14_lru_share : forall s, LruInv s ->
  let s' := lru_settle s in
  LruInv s' /\ l_hpw s' <= l_hpcap s' /\ l_pin s' = l_pin s /\ l_hpcap s' = l_hpcap s /\
  exists moved, l_high s = moved ++ l_high s' /\ l_low s' = l_low s ++ moved.
Proof. exact lru_settle_spec. Qed.
Print Assumptions c14_lru_share.

Theorem c14_lru_push_share : forall s e, LruInv s -> l_hpw (lru_push s e false) <= l_hpcap s.
Proof. intros s e HI. apply (lru_settle_snoc s e (l_low s) (l_pin s) HI). Qed.
Print Assumptions c14_lru_push_share.

(* a looked-up record goes to the pin list; released, it returns to the most-recent end of its pool *)
Theorem c14_lru_acquire : forall s i, LruInv s ->
  LruInv (lru_acquire s i) /\
  (existsb (fun p => ent_is i (fst p)) (l_pin s) = true -> lru_acquire s i = s) /\
  (existsb (fun p => ent_is i (fst p)) (l_pin s) = false ->
   forall e, In e (l_low s ++ l_high s) -> eid e = i ->
   exists e' b, In (e', b) (l_pin (lru_acquire s i)) /\ eid e' = i).
Proof.
  intros s i HI. split; [exact (LruInv_acquire s i HI)|].
  split; [unfold lru_acquire; intros ->; reflexivity|intros _; apply lru_acquire_pinned].
Qed.
Print Assumptions c14_lru_acquire.

Theorem c14_lru_release : forall s i, LruInv s ->
  LruInv (lru_release s i) /\
  match take_out (fun p => ent_is i (fst p)) (l_pin s) with
  | None => lru_release s i = s
  | Some ((e, true), pin') =>
      l_pin (lru_release s i) = pin' /\ l_hpw (lru_release s i) <= l_hpcap s /\
      exists moved, l_high s ++ [e] = moved ++ l_high (lru_release s i) /\
                    l_low (lru_release s i) = l_low s ++ moved
  | Some ((e, false), pin') =>
      l_pin (lru_release s i) = pin' /\ l_low (lru_release s i) = l_low s ++ [e] /\
      l_high (lru_release s i) = l_high s
  end.
Proof.
  intros s i HI. unfold lru_release.
  destruct (take_out (fun p => ent_is i (fst p)) (l_pin s)) as [[[e []] pin']|]; [| |auto].
  - exact (lru_settle_snoc s e (l_low s) pin' HI).
  - split; [constructor; apply HI|auto].
Qed.
Print Assumptions c14_lru_release.

(* pop removes exactly its victim from the container; there is no such theorem for S3-FIFO *)
Theorem c14_pop_members_fifo : forall q e q', fifo_pop q = Some (e, q') -> map eid q = eid e :: map eid q'.
Proof. intros q e q'. unfold fifo_pop. destruct q; [discriminate|]. intros [= <- <-]. reflexivity. Qed.
Print Assumptions c14_pop_members_fifo.

Theorem c14_pop_members_lru : forall s e s',
  lru_pop s = Some (e, s') -> Permutation (a_members (ALru s)) (eid e :: a_members (ALru s')).
Proof.
  intros s e s'. unfold lru_pop, a_members.
  destruct (l_low s) as [|x low']; [destruct (l_high s) as [|y high']; [discriminate|]|]; intros [= <- <-]; reflexivity.
Qed.
Print Assumptions c14_pop_members_lru.

Theorem c14_pop_members_lfu : forall bucket s e s',
  lfu_pop bucket s = Some (e, s') -> Permutation (a_members (ALfu s)) (eid e :: a_members (ALfu s')).
Proof.
  intros bucket s e s'. unfold lfu_pop, a_members.
  destruct (f_window s) as [|x w'], (f_probation s) as [|y p']; [destruct (f_protected s); [discriminate|]| | |destruct (_ <? _)];
    intros [= <- <-]; cbn [f_window f_probation f_protected lfu_set map app]; try reflexivity.
  (* the duel lost by probation's head: the victim comes from the middle of the member list *)
  symmetry. apply (Permutation_middle (eid x :: map eid w')).
Qed.
Print Assumptions c14_pop_members_lfu.

Theorem c14_pop_members_sieve : forall s e s',
  sieve_pop s = Some (e, s') ->
  exists p q', nth_error q' p = Some (e, false) /\ map fst q' = map fst (v_q s) /\
               map fst (v_q s') = remove_nth p (map fst (v_q s)).
Proof.
  intros s e s'. unfold sieve_pop. destruct (sieve_scan _ _ (v_q s)) as [[p q]|] eqn:Es; [|discriminate].
  destruct (sieve_scan_sound Es) as [Hf Hv]. unfold vis in Hv.
  destruct (nth_error q p) as [[e0 b0]|] eqn:En; [|discriminate]. injection Hv as ->.
  intros [= <- <-]. exists p, q. cbn [v_q]. rewrite remove_nth_fst, Hf. auto.
Qed.
Print Assumptions c14_pop_members_sieve.

(* SIEVE, the published rule, for every queue and every hand position: the victim is the first record in queue order
   from the hand, wrapping at the tail, whose visited bit is clear; the bits of the records the hand passed are cleared
   and nothing else changes; with every record visited the hand goes once around and takes the record it started from *)
Theorem c14_sieve_rule : forall q p, (p < length q)%nat ->
  let fuel := (2 * length q + 1)%nat in
  (forall j, (p <= j < length q)%nat -> vis q j = Some false -> (forall i, (p <= i < j)%nat -> vis q i = Some true) ->
     sieve_scan fuel p q = Some (j, clear_from p (j - p) q)) /\
  (forall j, (j < p)%nat -> vis q j = Some false -> (forall i, (i < j)%nat -> vis q i = Some true) ->
     (forall i, (p <= i < length q)%nat -> vis q i = Some true) ->
     sieve_scan fuel p q = Some (j, clear_from 0 j (clear_from p (length q - p) q))) /\
  ((forall i, (i < length q)%nat -> vis q i = Some true) ->
     sieve_scan fuel p q = Some (p, clear_from 0 (length q) q)).
Proof.
  (* [length q + 1] rounds are enough for each case *)
  intros q p Hp fuel. split; [|split].
  - intros j Hj Hv Hall. apply scan_to; try assumption; lia.
  - intros j Hj Hv Hfront Hback. apply scan_wrap_to; auto; lia.
  - apply scan_around. lia.
Qed.
Print Assumptions c14_sieve_rule.

(* S3-FIFO, for every state.  Small queue: records whose frequency reached the threshold move to the main queue, in order,
   frequency kept; the first other one is the victim, and its hash is remembered in the ghost queue.  Main queue, second
   chance: a record with a positive frequency is re-queued at the tail with the frequency decremented; the first with
   frequency 0 is the victim *)
Theorem c14_s3_small_queue : forall pre s e f post,
  Forall (fun p => s_thr s <= snd p) pre -> f < s_thr s ->
  s3_evict_small (pre ++ (e, f) :: post) s =
    (Some e, ghost_push (s3_with_queues s post (s_main s ++ pre) (s_sw s - wsum2 pre - ew e) (s_mw s + wsum2 pre)) (eh e) (ew e)).
Proof. exact evict_small_promotes. Qed.
Print Assumptions c14_s3_small_queue.

Theorem c14_s3_main_queue_second_chance : forall pre fuel s e post,
  s_main s = pre ++ (e, 0) :: post -> Forall (fun p => 0 < snd p) pre -> (length pre < fuel)%nat ->
  s3_evict_main fuel s = Some (e, s3_with_queues s (s_small s) (post ++ map dec pre) (s_sw s) (s_mw s - ew e)).
Proof. exact evict_main_second_chance. Qed.
Print Assumptions c14_s3_main_queue_second_chance.

(* frequencies are capped at 3 (lookups, insertions), so the second-chance scan ends within its bound and a non-empty
   cache always yields a victim *)
Theorem c14_s3_frequency_capped : forall s i e, S3Inv s -> S3Inv (s3_acquire s i) /\ S3Inv (s3_push s e).
Proof. intros s i e H. split; [apply S3Inv_acquire|apply S3Inv_push]; exact H. Qed.
Print Assumptions c14_s3_frequency_capped.

Theorem c14_s3_pop_total : forall s, S3Inv s -> s_small s <> [] \/ s_main s <> [] -> exists e s', s3_pop s = Some (e, s').
Proof. exact s3_pop_total. Qed.
Print Assumptions c14_s3_pop_total.

(* w-TinyLFU (Mem/LfuThms.v), every state, any sketch: pop is total; the admission duel between the window's oldest record
   and probation's oldest record is decided by the estimated frequencies (strictly lower: the candidate goes, otherwise the
   probation record), the protected segment is evicted from only when both others are empty; window overflow moves the
   oldest window records to the back of probation, in order, until the window fits *)
Theorem c14_lfu_pop_total : forall bucket s,
  lfu_pop bucket s = None <-> f_window s = [] /\ f_probation s = [] /\ f_protected s = [].
Proof. exact lfu_pop_none. Qed.
Print Assumptions c14_lfu_pop_total.

Theorem c14_lfu_victim_rule : forall bucket s e s',
  lfu_pop bucket s = Some (e, s') ->
  match f_window s, f_probation s with
  | ewin :: _, epro :: _ =>
      (lfu_freq bucket s (eh ewin) < lfu_freq bucket s (eh epro) -> e = ewin /\ f_probation s' = f_probation s)%N /\
      (lfu_freq bucket s (eh epro) <= lfu_freq bucket s (eh ewin) -> e = epro /\ f_window s' = f_window s)%N
  | ewin :: _, [] => e = ewin
  | [], epro :: _ => e = epro
  | [], [] => exists t', f_protected s = e :: t'
  end /\ (f_window s <> [] \/ f_probation s <> [] -> f_protected s' = f_protected s).
Proof. exact lfu_victim_rule. Qed.
Print Assumptions c14_lfu_victim_rule.

Theorem c14_lfu_window_overflow : forall w p ww pw cap w' p' ww' pw',
  lfu_win_overflow w p ww pw cap = (w', p', ww', pw') -> ww = wsum w ->
  p' ++ w' = p ++ w /\ (exists moved, p' = p ++ moved /\ w = moved ++ w') /\
  ww' = wsum w' /\ (pw' = pw + (wsum w - wsum w'))%N /\ ((ww' <= cap)%N \/ w' = []).
Proof. exact lfu_win_overflow_rule. Qed.
Print Assumptions c14_lfu_window_overflow.

(* the count-min sketch behind [lfu_freq]: counting a hash raises its own estimate by exactly one (up to the cap) and never
   lowers any other hash's estimate - whatever the bucket function (MurmurHash3 in the implementation) *)
Theorem c14_sketch_counts_one : forall rows bs cap,
  Forall2 (fun r b => (b < length r)%nat) rows bs ->
  sk_estimate (sk_update rows bs) bs cap = N.min cap (sk_estimate rows bs cap + 1).
Proof. exact sk_update_counts_one. Qed.
Print Assumptions c14_sketch_counts_one.

Theorem c14_sketch_never_lowers : forall rows bs bs' acc,
  (sk_estimate rows bs' acc <= sk_estimate (sk_update rows bs) bs' acc)%N.
Proof. exact sk_update_never_lowers. Qed.
Print Assumptions c14_sketch_never_lowers.

Example c14_sieve_hand :
  (* queue a b c, a and b visited: the hand skips and clears them, evicts c, wraps to the front *)
  let q := [(mkEnt 0%nat 1 0, true); (mkEnt 1%nat 1 1, true); (mkEnt 2%nat 1 2, false)] in
  match sieve_pop (mkSieve q None) with
  | Some (e, s') => eid e = 2%nat /\ v_q s' = [(mkEnt 0%nat 1 0, false); (mkEnt 1%nat 1 1, false)] /\ v_hand s' = None
  | None => False
  end.
Proof. vm_compute. repeat split. Qed.

Example c14_s3fifo_small_to_main :
  (* small over budget: a (freq 1 >= threshold 1) is promoted, b (freq 0) is evicted and remembered in ghost *)
  let s := mkS3 [(mkEnt 0%nat 1 10, 1); (mkEnt 1%nat 1 11, 0)] [] [] [] 4 0 1 2 0 1 in
  match s3_pop s with
  | Some (e, s') => eid e = 1%nat /\ s_main s' = [(mkEnt 0%nat 1 10, 1)] /\ s_gset s' = [11] /\ s_sw s' = 0 /\ s_mw s' = 1
  | None => False
  end.
Proof. vm_compute. repeat split. Qed.

Example c14_nonvacuous_lru :
  LruInv (mkLru [] [mkEnt 0%nat 2 0; mkEnt 1%nat 2 1] [] 4 4) /\
  lru_pop (mkLru [] [mkEnt 0%nat 2 0; mkEnt 1%nat 2 1] [] 4 4) = Some (mkEnt 0%nat 2 0, mkLru [] [mkEnt 1%nat 2 1] [] 2 4).
Proof. split; [constructor; reflexivity|reflexivity]. Qed.

(* C15  A graceful close persists what memory held.  One-key model (Hybrid/Engine.v). *)
From Coq Require Import List NArith.
From FV Require Import Hybrid.Engine Hybrid.EngineInv Hybrid.EngineThms Hybrid.EngineVers.
From FV Require Mem.Shard Mem.ShardInv Mem.ShardThms.
Import ListNotations.
Open Scope N_scope.

Definition reachable (c : hcfg) (s : kst) : Prop := exists l, run_ok c init_k l /\ s = krun c init_k l.

Lemma reachable_kinv c s : bug_rr c = false -> reachable c s -> KInv c s.
Proof. intros Hrr [l [Hok ->]]. apply kinv_run; auto using kinv_init. Qed.
Print Assumptions reachable_kinv.

(* flush-on-close under write-on-eviction: when close() returns, the resident version (not in-memory-only, admitted,
   not a young copy of what the disk already has) is on the device, indexed, the write queue is empty *)
Theorem c15_close_persists : forall c s b v l a,
  bug_rr c = false -> reachable c s -> foc c = true -> woi c = false -> accepts c = true ->
  kmem s = Some (v, l, a) -> l <> LInMem -> a <> Young ->
  exists sq, pipe (do_close c s b) = [] /\ kkeep (do_close c s b) = None /\ kmem (do_close c s b) = None /\
             kidx (do_close c s b) = Some (IAddr sq v b) /\ In (v, sq, b) (kdisk (do_close c s b)) /\
             ktop (do_close c s b) = Some (Some v, sq).
Proof. intros c s b v l a Hrr Hr Hf Hw Ha Hm _. eapply close_persists; eauto using reachable_kinv. Qed.
Print Assumptions c15_close_persists.

(* ... and retrievable: before the process exits, and from the reopened store provided recovery picks that copy
   (it is the highest sequence written; the scan finds it: C07, C10) *)
Theorem c15_close_then_lookup : forall c s b v l a,
  bug_rr c = false -> reachable c s -> foc c = true -> woi c = false -> accepts c = true ->
  kmem s = Some (v, l, a) -> l <> LInMem -> a <> Young ->
  lookup_now (do_close c s b) = Some v.
Proof.
  intros c s b v l a Hrr Hr%reachable_kinv Hf Hw Ha Hm _ Hy; [|exact Hrr].
  destruct (close_persists c s b v l a Hrr Hr Hf Hw Ha Hm Hy) as (sq & _ & Hk & Hmm & Hi & Hd & _).
  eapply lookup_now_hit; eauto.
Qed.
Print Assumptions c15_close_then_lookup.

(* ... and after a reopen whose scan picks that copy for the key (the premise on [best_of]; the next theorem
   discharges it) *)
Theorem c15_close_reopen_lookup_partial : forall c s b v l a vis,
  bug_rr c = false -> reachable c s -> foc c = true -> woi c = false -> accepts c = true ->
  kmem s = Some (v, l, a) -> l <> LInMem -> a <> Young ->
  (forall sq, ktop (do_close c s b) = Some (Some v, sq) -> best_of (do_close c s b) vis = Some (IAddr sq v b)) ->
  lookup_now (do_recover c (do_close c s b) vis) = Some v.
Proof.
  intros c s b v l a vis Hrr Hr%reachable_kinv Hf Hw Ha Hm _ Hy Hbest; [|exact Hrr].
  destruct (close_persists c s b v l a Hrr Hr Hf Hw Ha Hm Hy) as (sq & _ & Hk & Hmm & Hi & Hd & Ht).
  apply (lookup_now_hit _ v sq b); auto. unfold do_recover. fold (best_of (do_close c s b) vis). now rewrite (Hbest _ Ht).
Qed.
Print Assumptions c15_close_reopen_lookup_partial.

(* in full: a scan that reads the device completely after the close serves exactly the resident version *)
Theorem c15_close_reopen_serves_resident : forall c l b v lo a vis,
  bug_rr c = false -> run_ok c init_k l -> foc c = true -> woi c = false -> accepts c = true ->
  kmem (krun c init_k l) = Some (v, lo, a) -> lo <> LInMem -> a <> Young ->
  (forall x, In x (kdisk (do_close c (krun c init_k l) b)) -> In x vis) ->
  lookup_now (do_recover c (do_close c (krun c init_k l) b) vis) = Some v.
Proof.
  intros c l b v lo a vis Hrr Hok Hf Hw Ha Hm _ Hy Hvis.
  destruct (tinv_run c l init_k Hrr (kinv_init c) tinv_init Hok) as [HK HT].
  destruct (close_persists c _ b v lo a Hrr HK Hf Hw Ha Hm Hy) as (sq & _ & _ & _ & _ & Hd & Ht).
  eapply recovery_serves_latest; eauto using kinv_close, tinv_close.
Qed.
Print Assumptions c15_close_reopen_serves_resident.

(* with flush-on-close disabled nothing is written at close *)
Theorem c15_no_flush_nothing_written : forall c s b, foc c = false -> ksubs (do_close c s b) = ksubs s.
Proof. intros c s b Hf. now rewrite subs_close, Hf. Qed.
Print Assumptions c15_no_flush_nothing_written.

(* close leaves no work behind: wait()/close() return with an empty pipeline *)
Theorem c15_close_drains : forall c s b, pipe (do_close c s b) = [].
Proof. intros. unfold do_close. apply drain_all_empty. Qed.
Print Assumptions c15_close_drains.

(* whatever the reopened store answers is the latest value *)
Theorem c15_reopen_fresh : forall c s b vis r,
  bug_rr c = false -> reachable c s -> restart_ok c s b vis ->
  lookup_now (kstep c s (KRestart b vis)) = Some r -> ktruth s = Some r.
Proof. intros c s b vis r Hrr Hr. apply reopen_lookup_fresh; auto. apply reachable_kinv; auto. Qed.
Print Assumptions c15_reopen_fresh.

Example c15_nonvacuous :
  let c := mkCfg false true false true true false in
  let s := krun c init_k [KIns LDefault; KEvict; KDrain 0; KIns LDefault] in
  run_ok c init_k [KIns LDefault; KEvict; KDrain 0; KIns LDefault] /\
  kmem s = Some (2, LDefault, Fresh) /\ lookup_now (do_close c s 1) = Some 2 /\
  lookup_now (do_recover c (do_close c s 1) (kdisk (do_close c s 1))) = Some 2 /\
  restart_ok c s 1 (kdisk (do_close c s 1)).
Proof. vm_compute. repeat split; try discriminate. exists 1. split; auto. Qed.

(* the memory tier's part of close (M-SHARD, RawCache::flush): whatever sequence of operations led to the state, and
   whatever handles are still alive, the flush leaves the shard empty and gives every resident record exactly the
   eviction step - the Evict event and, with the pipe installed, the hand-off to the disk tier *)
Theorem c15_flush_offloads_every_resident_record : forall c cap ops s vs s',
  ShardThms.good c -> Shard.run c (Shard.init_shard cap) ops = Some s -> Shard.flush c s vs = Some s' ->
  Shard.idx s' = [] /\
  forall k i, In (k, i) (Shard.idx s) ->
    In (Shard.EvEvict, i) (Shard.elog s') /\ (Shard.piped c = true -> In i (Shard.plog s')).
Proof.
  intros c cap ops s vs s' [Hc Ht] Hr. apply ShardInv.flush_takes_everything.
  exact (ShardInv.IdxInv_run c ops _ s Hc Ht (ShardInv.IdxInv_init cap) Hr).
Qed.
Print Assumptions c15_flush_offloads_every_resident_record.

(* F19 (fixed by 92930ee): the pinned snapshot's flush was evict_all.  With LRU a record that is looked up and whose
   handle is still alive is pinned, evict_all stops with it still resident (the implementation's empty victim list is
   admissible), so close() never handed it to the disk tier; the repaired flush must take it *)
Example c15_refuted_F19_evict_all_leaves_a_referenced_record :
  let c := Shard.mkCfg true true false false in
  let ops := [Shard.OInsert 7 1 1 7 false false 1 []; Shard.ODrop 1; Shard.OGet 7 2] in
  exists s s', Shard.run c (Shard.init_shard 4) ops = Some s /\
    Shard.step c s (Shard.OEvictAll []) = Some s' /\ Shard.idx s' <> [] /\ Shard.plog s' = [] /\
    Shard.step c s (Shard.OFlush []) = None /\
    exists s'', Shard.step c s (Shard.OFlush [7]) = Some s'' /\ Shard.idx s'' = [] /\ Shard.plog s'' = [0%nat].
Proof. vm_compute. eexists _, _. repeat split; try discriminate. eexists. repeat split. Qed.

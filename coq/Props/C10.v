(* C10  With the tombstone log, a flushed delete survives any number of restarts. *)
From Coq Require Import List NArith.
From FV Require Import Disk.Tombstone Disk.TombstoneProofs.
Import ListNotations.
Open Scope N_scope.

(* any number of sessions (open, append a batch, restart) on a fresh log of any size, as long as the
   total stays within the log's capacity: the next open returns every tombstone ever appended, in the
   order written, and resumes right behind the last one - so nothing appended earlier is ever overwritten.
   The sequences are ANY non-zero numbers, in any order: with several flushers the log is written batch by batch,
   not in sequence order (finding F22: the pinned snapshot resumed behind the newest tombstone) *)
Theorem c10_recovered : forall pages batches,
  nonzero (concat batches) ->
  N.of_nat (length (concat batches)) + 1 <= pages * SLOTS_PER_PAGE ->
  let dev := sessions false pages (fresh_device pages) batches in
  snd (topen false pages dev) = concat batches /\
  l_tail (fst (topen false pages dev)) = N.of_nat (length (concat batches)) + 1.
Proof. exact all_tombstones_survive. Qed.
Print Assumptions c10_recovered.

(* in particular for the sequences the engine hands out to one flusher: positive and increasing *)
Theorem c10_recovered_in_sequence_order : forall pages batches,
  increasing 0 (concat batches) ->
  N.of_nat (length (concat batches)) + 1 <= pages * SLOTS_PER_PAGE ->
  let dev := sessions false pages (fresh_device pages) batches in
  snd (topen false pages dev) = concat batches.
Proof. intros pages batches H Hc. apply all_tombstones_survive; [eapply increasing_nonzero; eauto|assumption]. Qed.
Print Assumptions c10_recovered_in_sequence_order.

(* the n-th tombstone ever appended sits in slot n: the device is [empty; t1; ...; tn; empty...].  The capacity premise
   follows from the two behind it *)
Theorem c10_layout : forall pages batches ts pad,
  nonzero (ts ++ concat batches) ->
  N.of_nat (length ts) + N.of_nat (length (concat batches)) + 1 <= pages * SLOTS_PER_PAGE ->
  N.of_nat (length (layout ts pad)) = pages * SLOTS_PER_PAGE ->
  (length (concat batches) <= pad)%nat ->
  sessions false pages (layout ts pad) batches = layout (ts ++ concat batches) (pad - length (concat batches)).
Proof. intros pages batches ts pad Hnz _. exact (sessions_layout pages batches ts pad Hnz). Qed.
Print Assumptions c10_layout.

Definition mk (lo n : nat) : list tomb := map (fun i => mkTomb (N.of_nat i * 7) (N.of_nat i)) (seq lo n).

(* the model of the pinned snapshot (recovered address lacks the page offset; defect F5): after 300
   deletes, a restart, 10 more deletes and another restart, ten tombstones are gone *)
Theorem c10_refuted_F5 :
  let dev := sessions true 4 (fresh_device 4) [mk 1 300; mk 301 10] in
  length (snd (topen true 4 dev)) = 300%nat /\
  existsb (fun t => t_seq t =? 45) (snd (topen true 4 dev)) = false.
Proof. vm_compute. split; reflexivity. Qed.
Print Assumptions c10_refuted_F5.

Definition mks (l : list N) : list tomb := map (fun i => mkTomb (i * 7) i) l.

(* F22 (fixed by 0eebaad): two flushers wrote the tombstones 1, 3, 2 in that order; the old rule (resume behind the
   newest: the model with [bug_tail] on a one-page log, where its page arithmetic is the identity) puts the next session's
   tombstone 4 over tombstone 2; the repaired rule keeps all four *)
Theorem c10_refuted_F22 :
  map t_seq (snd (topen true 1 (sessions true 1 (fresh_device 1) [mks [1; 3; 2]; mks [4]]))) = [1; 3; 4] /\
  map t_seq (snd (topen false 1 (sessions false 1 (fresh_device 1) [mks [1; 3; 2]; mks [4]]))) = [1; 3; 2; 4].
Proof. vm_compute. split; reflexivity. Qed.
Print Assumptions c10_refuted_F22.

Example c10_nonvacuous :
  let dev := sessions false 4 (fresh_device 4) [mk 1 300; mk 301 10] in
  map t_seq (snd (topen false 4 dev)) = map N.of_nat (seq 1 310).
Proof. vm_compute. reflexivity. Qed.

(* C13  Each entry leaves memory exactly once, with the right reason and disk hand-off. *)
From Coq Require Import List NArith.
From FV Require Import Mem.Shard Mem.ShardRefs Mem.ShardThms Mem.ShardEvents.
Import ListNotations.
Open Scope N_scope.

Lemma reach_evinv c cap ops s : good c -> run c (init_shard cap) ops = Some s -> EvInv c s.
Proof. intros Hg H. eapply EvInv_run; eauto; [apply Inv_init | apply EvInv_init]. Qed.
Print Assumptions reach_evinv.

(* an admitted (non-phantom) record is either findable, with no notification, or not findable,
   with exactly one *)
Theorem c13_once : forall c cap ops s i,
  good c -> run c (init_shard cap) ops = Some s ->
  (i < length (arena s))%nat -> rphantom (get_rec s i) = false ->
  (indexed s i = true /\ event_count s i = 0%nat) \/ (indexed s i = false /\ event_count s i = 1%nat).
Proof.
  intros c cap ops s i Hg H Hi Hp. pose proof (reach_evinv c cap ops s Hg H) as HE.
  rewrite event_count_eq. destruct (indexed s i) eqn:E.
  - left. split; [reflexivity|]. apply (ei_indexed c s HE). apply ShardLemmas.indexed_In. assumption.
  - right. split; [reflexivity|]. apply (ei_left c s HE); auto. intros Hin. apply ShardLemmas.indexed_In in Hin. congruence.
Qed.
Print Assumptions c13_once.

(* a phantom (filter-rejected / disk-only) record is never findable; it is notified Remove at
   insertion and Evict when its last handle is dropped *)
Theorem c13_phantom : forall c cap ops s i,
  good c -> run c (init_shard cap) ops = Some s ->
  (i < length (arena s))%nat -> rphantom (get_rec s i) = true ->
  indexed s i = false /\ event_count s i = if N.eqb (get_ref s i) 0 then 2%nat else 1%nat.
Proof.
  intros c cap ops s i Hg H Hi Hp. pose proof (reach_evinv c cap ops s Hg H) as HE.
  pose proof (reach_inv c cap ops s Hg H) as [HI _ _]. split.
  - destruct (indexed s i) eqn:E; [|reflexivity]. exfalso.
    apply (ShardInv.phantom_not_indexed s i HI Hp). apply ShardLemmas.indexed_In. assumption.
  - rewrite event_count_eq. apply (ei_phantom c s HE); assumption.
Qed.
Print Assumptions c13_phantom.

(* the disk tier is offered exactly the records notified Evict, in the same order, each once;
   without a pipe nothing is offered *)
Theorem c13_pipe : forall c cap ops s,
  good c -> run c (init_shard cap) ops = Some s ->
  plog s = if piped c then evicted_ids (elog s) else [].
Proof. intros c cap ops s Hg H. apply (ei_pipe c s). eapply reach_evinv; eauto. Qed.
Print Assumptions c13_pipe.

(* the reason matches what happened: each operation that takes records out of the index logs its own event for just those
   records (replacement: [ShardSteps.replaced]).  [evict_one] is the step of every loop: insert, resize, evict_all and flush
   ([ShardSteps.evs]) *)
Theorem c13_reason_remove : forall c s k h i,
  lookup k (idx s) = Some i ->
  elog (remove c s k h) = elog s ++ [(EvRemove, i)] /\ plog (remove c s k h) = plog s.
Proof. intros c s k h i Hl. unfold remove. rewrite Hl. split; reflexivity. Qed.
Print Assumptions c13_reason_remove.

Theorem c13_reason_evict : forall c s k i,
  elog (evict_one c s k i) = elog s ++ [(EvEvict, i)] /\
  plog (evict_one c s k i) = if piped c then plog s ++ [i] else plog s.
Proof. intros c s k i. rewrite ShardSteps.evict_one_eq. split; reflexivity. Qed.
Print Assumptions c13_reason_evict.

Theorem c13_reason_clear : forall c s,
  elog (clear c s) = elog s ++ map (fun p : N * id => (EvClear, snd p)) (idx s) /\ plog (clear c s) = plog s.
Proof.
  intros c s. rewrite ShardSteps.clear_eq. split; reflexivity.
Qed.
Print Assumptions c13_reason_clear.

Example c13_nonvacuous :
  exists s, run (mkCfg false true false false) (init_shard 1)
              [OInsert 0 1 1 0 false false 1 []; OInsert 1 2 1 1 false false 2 [0]; OInsert 1 3 1 1 false false 3 [1]] = Some s
            /\ elog s = [(EvEvict, 0%nat); (EvEvict, 1%nat)] /\ plog s = [0%nat; 1%nat].
Proof. eexists. split; [vm_compute; reflexivity|]. split; reflexivity. Qed.

(* C03  Corrupted or misdirected disk bytes never surface as a cached value.
   Two layers: (1) bytes - what Store::load accepts, for ARBITRARY bytes (Disk/Codec.v, Disk/CodecProofs.v);
   (2) recovery - whatever part of the device survives and is reached by the scan, a recovered store answers a miss or a
   version really written for the key (one-key model, Hybrid/Engine.v; an index entry whose bytes fail verification is
   a miss: [on_disk]). *)
From Coq Require Import List NArith.
From FV Require Import Disk.Codec Disk.CodecProofs Disk.BlobIndex Disk.BlobIndexProofs Hybrid.Engine Hybrid.EngineVers Hybrid.RecoverDmg.
Import ListNotations.
Open Scope N_scope.

(* [cksum] (XXH64) and [decompress] are external code: the theorems hold for any functions in their place.
   An entry is handed out only if magic and compression tag are valid and the checksum in the header equals the checksum
   of exactly the bytes then decoded as value and key. *)
Theorem c03_accept_means_verified : forall cksum decompress raw h kenc venc,
  load_entry cksum decompress raw = Some (h, kenc, venc) ->
  read_header raw = inl h /\
  let kl := N.to_nat (h_key_len h) in
  let vl := N.to_nat (h_value_len h) in
  let body := skipn HEADER_LEN raw in
  (vl + kl <= length body)%nat /\
  cksum (firstn (vl + kl) body) = h_checksum h /\
  kenc = firstn kl (skipn vl body) /\
  decompress (h_comp h) (firstn vl body) = Some venc.
Proof.
  intros cksum decompress raw h kenc venc. unfold load_entry. destruct (read_header raw) as [h0|e]; [|discriminate].
  destruct (deserialize _ _ _ _ _ _ _) as [[k v]|] eqn:D; intros [= -> <- <-].
  apply CodecProofs.deserialize_inv in D as (L & C & V & K). auto.
Qed.
Print Assumptions c03_accept_means_verified.

(* the header's last word holds the magic in its upper three bytes, the compression tag in the lowest *)
Theorem c03_header_validated : forall raw h,
  read_header raw = inl h ->
  (HEADER_LEN <= length raw)%nat /\ h_comp h <= 2 /\ decode_be (firstn 4 (skipn 32 raw)) / 256 = ENTRY_MAGIC / 256.
Proof. exact read_header_sound. Qed.
Print Assumptions c03_header_validated.

(* flipped bits, zeroed or swapped pages, torn or stale sectors inside the decoded region: rejected as soon as they
   change the checksum (a checksum collision is the residual risk) *)
Theorem c03_damage_rejected : forall cksum decompress raw h,
  read_header raw = inl h ->
  cksum (firstn (N.to_nat (h_value_len h) + N.to_nat (h_key_len h)) (skipn HEADER_LEN raw)) <> h_checksum h ->
  load_entry cksum decompress raw = None.
Proof.
  intros cksum decompress raw h Hh Hc. destruct (load_entry cksum decompress raw) as [[[h0 k] v]|] eqn:E; [|reflexivity].
  destruct (c03_accept_means_verified _ _ _ _ _ _ E) as (Hh0 & _ & Hck & _). congruence.
Qed.
Print Assumptions c03_damage_rejected.

Theorem c03_bad_header_rejected : forall cksum decompress raw e,
  read_header raw = inr e -> load_entry cksum decompress raw = None.
Proof. intros cksum decompress raw e Hh. unfold load_entry. rewrite Hh. reflexivity. Qed.
Print Assumptions c03_bad_header_rejected.

(* the blob index page (what recovery's scan parses), for ARBITRARY bytes: entries reach recovery only if the stored
   checksum equals the checksum of everything behind it - the entry count included (seeded change C03-m2 excludes it) *)
Theorem c03_index_page_accept_means_verified : forall cksum buf es,
  bidx_read cksum buf = BOk es ->
  cksum (skipn 8 buf) = decode_be (firstn 8 buf) /\
  let count := N.to_nat (decode_be (firstn 4 (skipn 8 buf))) in
  (BIDX_OFFSET + count * BENT_LEN <= length buf)%nat /\ length es = count /\
  es = chunks count (skipn BIDX_OFFSET buf).
Proof.
  intros cksum buf es. unfold bidx_read. destruct (Nat.ltb (length buf) BIDX_OFFSET); [discriminate|].
  destruct (N.eqb_spec (cksum (skipn 8 buf)) (decode_be (firstn 8 buf))) as [C|]; [|discriminate].
  cbv zeta. destruct (Nat.ltb (length buf) _) eqn:L; intros [= <-]. apply PeanoNat.Nat.ltb_ge in L.
  rewrite chunks_length. auto.
Qed.
Print Assumptions c03_index_page_accept_means_verified.

Theorem c03_index_page_damage_rejected : forall cksum buf,
  (BIDX_OFFSET <= length buf)%nat -> cksum (skipn 8 buf) <> decode_be (firstn 8 buf) -> bidx_read cksum buf = BReject.
Proof.
  intros cksum buf Hl Hc. unfold bidx_read.
  rewrite (proj2 (PeanoNat.Nat.ltb_ge _ _) Hl), (proj2 (N.eqb_neq _ _) Hc). reflexivity.
Qed.
Print Assumptions c03_index_page_damage_rejected.

(* BlobIndexReader::read slices the page by the stored count and panics when it points beyond the page: only a page whose
   checksum verifies gets that far *)
Theorem c03_index_page_panic_only_if_verified : forall cksum buf,
  (BIDX_OFFSET <= length buf)%nat -> bidx_read cksum buf = BPanic -> cksum (skipn 8 buf) = decode_be (firstn 8 buf).
Proof.
  intros cksum buf Hl. unfold bidx_read. rewrite (proj2 (PeanoNat.Nat.ltb_ge _ _) Hl).
  destruct (N.eqb_spec (cksum (skipn 8 buf)) (decode_be (firstn 8 buf))); [auto|discriminate].
Qed.
Print Assumptions c03_index_page_panic_only_if_verified.

Example c03_index_page_nonvacuous :
  let ck := fun b : bytes => fold_left N.add b 7 in
  let es := [mkBent 5 9 4096 100; mkBent 6 10 8192 4097] in
  let page := bidx_page ck es [1; 2; 3] in
  bidx_read ck page = BOk es /\
  (* one more entry claimed by the count, same checksum field: rejected *)
  bidx_read ck (firstn 11 page ++ [3] ++ skipn 12 page) = BReject.
Proof. vm_compute. split; reflexivity. Qed.

(* recovery over a damaged device: [vis] is what is left of the device as far as the scan is concerned (any subset of the
   copies: a failed blob index checksum, a sequence regress, a zeroed page end the scan of a block) *)
Theorem c03_recovery_serves_written_only : forall c l vis v,
  lookup_now (do_recover c (krun c init_k l) vis) = Some v -> In v (ksubs (krun c init_k l)).
Proof. intros c l vis v. apply recovered_serves_written; auto. apply vinv_run, vinv_init. Qed.
Print Assumptions c03_recovery_serves_written_only.

(* the tombstone log carries no checksum: whatever its pages parse to - [tl]: any list of sequences, spurious tombstones
   included, logged ones missing - and whatever part of the blocks the scan reaches, a recovered store answers a miss or a
   version really written for the key (Hybrid/RecoverDmg.v) *)
Theorem c03_damaged_tombstone_log_serves_written_only : forall c l vis tl v,
  lookup_now (do_recover_dmg c (krun c init_k l) vis tl) = Some v -> In v (ksubs (krun c init_k l)).
Proof. intros c l vis tl v. apply recovered_serves_written; auto. apply vinv_run, vinv_init. Qed.
Print Assumptions c03_damaged_tombstone_log_serves_written_only.

(* a spurious tombstone can only hide the key *)
Theorem c03_spurious_tombstone_is_a_miss : forall c s vis sq,
  (forall v sq' b, In (v, sq', b) (kdisk s) -> sq' <= sq) ->
  lookup_now (do_recover_dmg c s vis [sq]) = None.
Proof.
  intros c s vis sq Hmax. unfold do_recover_dmg. cbn [best_tomb].
  pose proof (best_spec [] (visible vis (kdisk s))) as Hs. cbn [best_tomb] in Hs.
  destruct (best_copy _ None) as [o|]; cbn; [|reflexivity].
  (* the best copy is a copy on the device, hence not newer than the tombstone, which is inserted after it *)
  destruct Hs as [[(v0 & sq0 & b0 & -> & Hin)|(? & _ & [])] _]. apply filter_In in Hin as [Hin _].
  apply Hmax, N.leb_le in Hin. cbn. now rewrite Hin.
Qed.
Print Assumptions c03_spurious_tombstone_is_a_miss.

(* an index entry whose bytes are gone or fail verification is a miss, not an older copy *)
Theorem c03_unverifiable_copy_is_a_miss : forall s sq v b,
  kmem s = None -> kkeep s = None -> kidx s = Some (IAddr sq v b) -> on_disk (kdisk s) v sq b = false ->
  lookup_now s = None.
Proof.
  intros s sq v b Hm Hk Hi Ho. unfold lookup_now, disk_lookup, disk_lookup2. rewrite Hm, Hk, Hi. cbn [idx_get]. rewrite Ho. reflexivity.
Qed.
Print Assumptions c03_unverifiable_copy_is_a_miss.

Example c03_nonvacuous :
  let c := mkCfg true true false true true false in
  let l := [KIns LDefault; KFlush 0; KComplete; KIns LDefault; KFlush 1; KComplete] in
  (* both copies visible: v2; the block holding v2 unreadable: v1 (really written); nothing readable: miss *)
  lookup_now (do_recover c (krun c init_k l) [(1, 1, 0); (2, 2, 1)]) = Some 2 /\
  lookup_now (do_recover c (krun c init_k l) [(1, 1, 0)]) = Some 1 /\
  lookup_now (do_recover c (krun c init_k l) []) = None.
Proof. vm_compute. repeat split. Qed.

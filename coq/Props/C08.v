(* C08  Every storable key/value round-trips through the disk format bit-exactly. *)
From Coq Require Import List NArith.
From FV Require Import Disk.Codec Disk.CodecProofs.
Import ListNotations.
Open Scope N_scope.

(* every numeric type (w bytes; signed and float types through their bit patterns) *)
Theorem c08_int : forall w x r, x < 256 ^ N.of_nat w ->
  decode_int w (encode_le w x ++ r) = Some (x, r) /\ length (encode_le w x) = w.
Proof. intros. split; [apply decode_int_roundtrip; assumption | apply encode_le_length]. Qed.
Print Assumptions c08_int.

Theorem c08_bool : forall b r, decode_bool (encode_bool b ++ r) = Some (b, r).
Proof. intros [|] r; reflexivity. Qed.
Print Assumptions c08_bool.

Theorem c08_vec : forall v r, N.of_nat (length v) < 256 ^ N.of_nat 8 -> decode_vec (encode_vec v ++ r) = Some (v, r).
Proof. exact decode_vec_roundtrip. Qed.
Print Assumptions c08_vec.

(* String: [utf8_valid] is String::from_utf8's check; a Rust String satisfies it *)
Theorem c08_string : forall utf8_valid s r,
  utf8_valid s = true -> N.of_nat (length s) < 256 ^ N.of_nat 8 ->
  decode_string utf8_valid (encode_string s ++ r) = Some (s, r).
Proof.
  intros utf8_valid s r Hu Hl. unfold encode_string. rewrite decode_string_vec, Hu by assumption. reflexivity.
Qed.
Print Assumptions c08_string.

Theorem c08_header : forall h r, header_ok h -> read_header (write_header h ++ r) = inl h.
Proof. exact header_roundtrip. Qed.
Print Assumptions c08_header.

(* an accepted entry decodes to the original key and value encodings; the recorded lengths are the
   bytes written; [codec_ok] is the one hypothesis about zstd / lz4 *)
Theorem c08_entry : forall cksum compress decompress,
  (forall c x, decompress c (compress c x) = Some x) ->
  forall comp kenc venc cap payload kl vl pad,
  serialize compress comp kenc venc cap = Some (payload, kl, vl) ->
  length payload = (N.to_nat vl + N.to_nat kl)%nat /\ (length payload <= cap)%nat /\
  deserialize cksum decompress (payload ++ pad) kl vl comp (Some (cksum payload)) = inl (kenc, venc).
Proof. exact serialize_roundtrip. Qed.
Print Assumptions c08_entry.

(* an entry that cannot fit is rejected as a whole: the buffer is exactly what it was *)
Theorem c08_reject_whole : forall cksum compress b kenc venc hash seq comp b',
  buffer_push cksum compress b kenc venc hash seq comp = (b', false) -> b' = b.
Proof.
  intros cksum compress b kenc venc hash seq comp b'. unfold buffer_push.
  destruct (_ <? _); [intros [= <-]; reflexivity|].
  destruct (serialize _ _ _ _ _) as [[[p kl] vl]|]; [|intros [= <-]; reflexivity].
  destruct (_ <? _); intros [= <-]; reflexivity.
Qed.
Print Assumptions c08_reject_whole.

Theorem c08_too_small_is_an_error : forall compress comp kenc venc cap,
  (cap < length (compress comp venc ++ kenc))%nat -> serialize compress comp kenc venc cap = None.
Proof. intros compress comp kenc venc cap H. unfold serialize. rewrite (proj2 (PeanoNat.Nat.leb_gt _ _) H). reflexivity. Qed.
Print Assumptions c08_too_small_is_an_error.

Theorem c08_accept_commits_exactly : forall cksum compress b kenc venc hash seq comp b',
  buffer_push cksum compress b kenc venc hash seq comp = (b', true) ->
  exists payload kl vl,
    serialize compress comp kenc venc (N.to_nat (bf_cap b - bf_written b) - HEADER_LEN) = Some (payload, kl, vl) /\
    let len := N.of_nat HEADER_LEN + kl + vl in
    align_up len <= bf_max b /\
    bf_written b' = bf_written b + align_up len /\
    bf_infos b' = bf_infos b ++ [mkBinfo hash seq (bf_written b) len] /\
    bf_data b' = bf_data b ++ [(bf_written b, write_header (mkHeader kl vl hash seq (cksum payload) comp) ++ payload)] /\
    bf_cap b' = bf_cap b /\ bf_max b' = bf_max b.
Proof.
  intros cksum compress b kenc venc hash seq comp b'. unfold buffer_push.
  destruct (_ <? _); [discriminate|].
  destruct (serialize _ _ _ _ _) as [[[p kl] vl]|]; [|discriminate].
  destruct (N.ltb_spec (bf_max b) (align_up (N.of_nat HEADER_LEN + kl + vl))); [discriminate|].
  (* not by injection: it would simplify align_up's division *)
  intros E%(f_equal fst). cbn [fst] in E. subst b'.
  exists p, kl, vl. cbn [bf_written bf_infos bf_data bf_cap bf_max]. auto 7.
Qed.
Print Assumptions c08_accept_commits_exactly.

(* what was pushed loads back through header validation, checksum and decoding *)
Theorem c08_loadable : forall cksum compress decompress,
  (forall c x, decompress c (compress c x) = Some x) ->
  forall payload kl vl hash seq comp kenc venc cap pad,
  serialize compress comp kenc venc cap = Some (payload, kl, vl) ->
  header_ok (mkHeader kl vl hash seq (cksum payload) comp) ->
  load_entry cksum decompress (write_header (mkHeader kl vl hash seq (cksum payload) comp) ++ payload ++ pad) =
  Some (mkHeader kl vl hash seq (cksum payload) comp, kenc, venc).
Proof.
  intros cksum compress decompress Hc payload kl vl hash seq comp kenc venc cap pad Hs Hok.
  unfold load_entry. rewrite header_roundtrip by assumption.
  rewrite ListX.skipn_app_exact by apply write_header_length. cbn [h_key_len h_value_len h_comp h_checksum].
  destruct (serialize_roundtrip cksum _ _ Hc _ _ _ _ _ _ _ pad Hs) as (_ & _ & ->). reflexivity.
Qed.
Print Assumptions c08_loadable.

(* a strict prefix of an encoding is an error, never a shorter value *)
Theorem c08_strict_prefix_fails : forall w x n v m,
  (n < w)%nat -> N.of_nat (length v) < 256 ^ N.of_nat 8 -> (m < length (encode_vec v))%nat ->
  decode_int w (firstn n (encode_le w x)) = None /\ decode_vec (firstn m (encode_vec v)) = None.
Proof. intros. split; [apply decode_int_prefix; assumption | apply decode_vec_prefix; assumption]. Qed.
Print Assumptions c08_strict_prefix_fails.

Example c08_nonvacuous :
  decode_int 2 (encode_le 2 513 ++ [9]) = Some (513, [9]) /\ encode_le 2 513 = [1; 2] /\
  read_header (write_header (mkHeader 8 16 7 3 99 2)) = inl (mkHeader 8 16 7 3 99 2).
Proof. vm_compute. repeat split. Qed.

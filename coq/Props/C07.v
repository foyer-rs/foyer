(* C07  What the flusher writes is exactly what recovery and lookups read back: layout, scan, and the index page's bytes.
   Proved here: for every block size B and index size I (page multiples, as the builder makes them; I < B; index holds >= 1 entry:
   stated in full although the proofs use only "I is a page multiple" and "holds >= 1 entry" - an entry as below already
   forces I < B), every sequence of batches of entries with 1 <= len and align len <= B - I:
   the 'handle loop places every entry within three rounds; the split context invariant carries across
   batches; every part is page aligned, its entries lie behind the blob's index page, inside the block,
   back to back; parts come out block by block and, inside a block, in increasing non-overlapping order.
   Scan exactness (c07_scan_exact, Disk/Scan.v + ScanProofs.v): for every physical block that received entries, what
   BlockScanner and the regress check of BlockRecoverRunner read back - over whatever older content the block held
   before - is exactly the list of entries the flusher wrote into it, in order, at the addresses given to the indexer. *)
From Coq Require Import List NArith Sorted.
From FV Require Import Disk.Codec Disk.BlobIndex Disk.BlobIndexProofs Disk.Splitter Disk.SplitterProofs Disk.Scan Disk.ScanProofs Disk.ScanBytes.
Import ListNotations.
Open Scope N_scope.

Theorem c07_no_fuel : forall B I, pa B -> pa I -> I < B -> 0 < icap I ->
  forall lo c a e, Inv B I lo c a -> eok B I e ->
  exists c' a', place B I 3 (c, a) e = Some (c', a') /\ Inv B I lo c' a'.
Proof. intros B I _ HI _ Hc lo. exact (place_ok B I HI Hc lo 0). Qed.
Print Assumptions c07_no_fuel.

Theorem c07_layout : forall B I, pa B -> pa I -> I < B -> 0 < icap I ->
  forall c es, CtxInv I c -> Forall (eok B I) es ->
  exists c' ps' n, split B I c es = Some (c', ps', n) /\ CtxInv I c' /\
    Forall (part_ok B I) ps' /\ StronglySorted before ps' /\
    (forall p, In p ps' -> p_blk p = 0 -> bo c + po c <= p_bbo p + p_pbo p) /\
    (forall p, In p ps' -> p_blk p + 1 = n -> pend p <= bo c' + po c') /\
    (n = 1 -> bo c + po c <= bo c' + po c').
Proof. intros B I _ HI _ Hc. exact (split_ok B I HI Hc). Qed.
Print Assumptions c07_layout.

Theorem c07_ctx_inv : forall B I, pa B -> pa I -> I < B -> 0 < icap I ->
  forall bs c, CtxInv I c -> Forall (Forall (eok B I)) bs ->
  exists c' out, split_batches B I c bs = Some (c', out) /\ CtxInv I c' /\
    Forall (fun r => Forall (part_ok B I) (fst r) /\ StronglySorted before (fst r)) out.
Proof. intros B I _ HI _ Hc. exact (split_batches_ok B I HI Hc). Qed.
Print Assumptions c07_ctx_inv.

Theorem c07_ctx_init : forall B I, pa I -> I < B -> 0 < icap I -> CtxInv I (init_ctx I).
Proof. intros B I HI _. exact (ctx_init I HI). Qed.
Print Assumptions c07_ctx_init.

(* what [part_ok] says, spelled out for one index entry: the recorded address is where the bytes went *)
Theorem c07_addr : forall B I p i, part_ok B I p -> In i (p_inds p) ->
  I <= i_off i /\ pa (p_bbo p + i_off i) /\ p_bbo p + i_off i + align (i_len i) <= B.
Proof.
  intros B I p i (_ & _ & _ & Hall & _) Hin. rewrite Forall_forall in Hall. exact (Hall i Hin).
Qed.
Print Assumptions c07_addr.

Example c07_nonvacuous :
  (* 64 KiB blocks, 4 KiB index: a first batch of three entries, then a batch that overflows the block *)
  split_batches 65536 4096 (init_ctx 4096)
    [[mkEnt 1 1 100; mkEnt 2 2 5000; mkEnt 3 3 4096]; [mkEnt 4 4 30000; mkEnt 5 5 30000]] =
  Some (mkCtx 0 36864 1,
        [([mkPart 0 0 4096 16384 [mkIdx 1 1 4096 100; mkIdx 2 2 8192 5000; mkIdx 3 3 16384 4096] 3], 1);
         ([mkPart 0 0 20480 32768 [mkIdx 4 4 20480 30000] 4; mkPart 1 0 4096 32768 [mkIdx 5 5 4096 30000] 1], 2)]).
Proof. vm_compute. reflexivity. Qed.

(* every physical block, over any sequence of batches, is a chain of blobs: a part continues the open blob right behind
   its last entry or starts a new blob right behind the previous one *)
Theorem c07_blocks_are_chained : forall B I, pa B -> pa I -> I < B -> 0 < icap I ->
  forall bs c out, Forall (Forall (eok B I)) bs -> split_batches B I (init_ctx I) bs = Some (c, out) ->
  forall g, wf I (0, []) (block_parts g (globalize 0 out)).
Proof. intros B I _ HI _ Hc bs c out Hbs Hs g. exact (proj1 (split_batches_chained B I HI Hc bs c out Hbs Hs g)). Qed.
Print Assumptions c07_blocks_are_chained.

(* scan exactness.  [nondec]: the block's entries carry non-decreasing sequences (one flusher fills a block, in
   submission order; a reinserted entry keeps its original, older sequence and breaks this - finding F10);
   [stale]: any content of the block's previous generation, all of it older *)
Theorem c07_scan_exact : forall B I, pa B -> pa I -> I < B -> 0 < icap I ->
  forall bs c out g stale,
  Forall (Forall (eok B I)) bs -> split_batches B I (init_ctx I) bs = Some (c, out) ->
  let ps := block_parts g (globalize 0 out) in
  ps <> [] ->
  nondec 0 (all_infos ps) ->
  (forall o l i x, stale o = Some l -> In i l -> In x (all_infos ps) -> i_seq i < n_seq x) ->
  recover_block B I (rd (written I ps) stale) = all_infos ps.
Proof.
  intros B I _ HI _ Hc bs c out g stale Hbs Hs.
  destruct (split_batches_chained B I HI Hc bs c out Hbs Hs g) as [Hwf Hok].
  exact (scan_written B I HI Hc _ stale Hwf Hok).
Qed.
Print Assumptions c07_scan_exact.

(* a block that was reclaimed and not written again scans as empty (only its first page is zeroed) *)
Theorem c07_clean_block_scans_empty : forall B I stale, stale 0 = None -> recover_block B I (rd (written I []) stale) = [].
Proof.
  intros B I stale H. unfold recover_block, scan_fuel, written. cbn [fold_left fst scan].
  destruct (B <? 0 + I); [reflexivity|]. unfold rd. cbn [find_off]. rewrite H. reflexivity.
Qed.
Print Assumptions c07_clean_block_scans_empty.

Example c07_scan_nonvacuous :
  (* the two batches of c07_nonvacuous: block 0 holds two parts of one blob, block 1 one part; behind block 0's blob
     lies an index page of the previous generation (sequence 0), which the regress check cuts off *)
  let out := [([mkPart 0 0 4096 16384 [mkIdx 1 1 4096 100; mkIdx 2 2 8192 5000; mkIdx 3 3 16384 4096] 3], 1);
              ([mkPart 0 0 20480 32768 [mkIdx 4 4 20480 30000] 4; mkPart 1 0 4096 32768 [mkIdx 5 5 4096 30000] 1], 2)] in
  let stale := fun o => if o =? 53248 then Some [mkIdx 9 0 4096 100] else None in
  recover_block 65536 4096 (rd (written 4096 (block_parts 0 (globalize 0 out))) stale) =
    [mkInfo 1 1 4096 100; mkInfo 2 2 8192 5000; mkInfo 3 3 16384 4096; mkInfo 4 4 20480 30000] /\
  recover_block 65536 4096 (rd (written 4096 (block_parts 1 (globalize 0 out))) stale) = [mkInfo 5 5 4096 30000].
Proof. vm_compute. split; reflexivity. Qed.

(* F10 seen from here: a reinserted entry (original sequence 2) written after sequence 7 makes the block regress;
   the scan stops there and loses it and everything behind it *)
Example c07_reinsertion_breaks_the_scan :
  let ps := [mkPart 0 0 4096 8192 [mkIdx 1 7 4096 100; mkIdx 2 2 8192 100] 2; mkPart 0 0 12288 4096 [mkIdx 3 8 12288 100] 3] in
  recover_block 65536 4096 (rd (written 4096 ps) (fun _ => None)) = [mkInfo 1 7 4096 100].
Proof. vm_compute. reflexivity. Qed.

(* The index page byte by byte (Disk/BlobIndex.v): what BlobIndex::write / seal put into the page, BlobIndexReader::read
   returns - exactly those entries, in order, whatever the rest of the (reused) page buffer holds.  [cksum] is external
   code (XXH64): any function with 64-bit results. *)
Theorem c07_index_page_roundtrip : forall cksum, (forall b, (cksum b < 256 ^ 8)%N) -> forall es rest,
  Forall bent_ok es -> (N.of_nat (length es) < 256 ^ 4)%N ->
  bidx_read cksum (bidx_page cksum es rest) = BOk es.
Proof. exact bidx_roundtrip. Qed.
Print Assumptions c07_index_page_roundtrip.

(* ... and therefore the scan of a block's BYTES: a block whose index-page-sized areas hold the sealed pages of what the
   flusher wrote (over stale pages of the previous generation, and bytes the reader does not accept everywhere else) is
   recovered, byte level, as exactly the entries written (Disk/ScanBytes.v: [represents], [rd_bytes]) *)
Theorem c07_scan_exact_bytes : forall cksum, (forall b, (cksum b < 256 ^ 8)%N) ->
  forall B I, pa B -> pa I -> I < B -> 0 < icap I ->
  forall bs c out g stale dev,
  Forall (Forall (eok B I)) bs -> split_batches B I (init_ctx I) bs = Some (c, out) ->
  let ps := block_parts g (globalize 0 out) in
  ps <> [] ->
  nondec 0 (all_infos ps) ->
  (forall o l i x, stale o = Some l -> In i l -> In x (all_infos ps) -> i_seq i < n_seq x) ->
  represents cksum dev (rd (written I ps) stale) ->
  recover_block B I (rd_bytes cksum dev) = all_infos ps.
Proof.
  intros cksum Hck B I HB HI HIB Hc bs c out g stale dev Hbs Hsp ps Hne Hnd Hst Hrep.
  rewrite (recover_block_bytes cksum Hck B I dev _ Hrep).
  exact (c07_scan_exact B I HB HI HIB Hc bs c out g stale Hbs Hsp Hne Hnd Hst).
Qed.
Print Assumptions c07_scan_exact_bytes.

Example c07_scan_bytes_nonvacuous :
  let ck := fun b : bytes => fold_left N.add b 7 in
  let l := [mkIdx 1 7 4096 100; mkIdx 2 8 8192 100] in
  let dev := fun o => if o =? 0 then bidx_page ck (map bent_of_idx l) [9; 9] else [0;0;0;0;0;0;0;0;0;0;0;0] in
  recover_block 65536 4096 (rd_bytes ck dev) = [mkInfo 1 7 4096 100; mkInfo 2 8 8192 100].
Proof. vm_compute. reflexivity. Qed.

(* C12  Disk writes happen exactly when policy and placement advice say so.
   [ksubs s] is the list of versions handed to the disk tier as cache entries (Submission::CacheEntry), in order;
   the flusher writes each of them exactly once and nothing else (checked against the implementation's device
   writes by the correspondence).  Statements are per step of the one-key model (Hybrid/Engine.v) and hold in every
   state, so they hold along every history. *)
From Coq Require Import List NArith Bool.
From FV Require Fetch.Fetch Fetch.FetchOrder.
From FV Require Import Hybrid.Engine Hybrid.EngineInv Hybrid.EngineThms Hybrid.EngineVers.
Import ListNotations.
Open Scope N_scope.

Theorem c12_woi_insert_written : forall c s l,
  woi c = true -> accepts c = true -> l <> LInMem -> ksubs (do_insert c s l) = ksubs s ++ [knext s].
Proof. intros c s l Hw Ha Hl. rewrite subs_insert. unfold insert_submits, insert_enqueues. rewrite Hw, Ha. now destruct l. Qed.
Print Assumptions c12_woi_insert_written.

Theorem c12_woi_eviction_writes_nothing : forall c s, woi c = true -> ksubs (do_evict c s) = ksubs s.
Proof. intros c s Hw. rewrite subs_evict. unfold evict_submits. rewrite Hw. now destruct (kmem s) as [[[]]|]. Qed.
Print Assumptions c12_woi_eviction_writes_nothing.

Theorem c12_woe_insert_writes_nothing : forall c s l,
  woi c = false -> l <> LOnDisk -> ksubs (do_insert c s l) = ksubs s.
Proof. intros c s l Hw Hl. rewrite subs_insert. unfold insert_submits, insert_enqueues. rewrite Hw, andb_comm. now destruct l. Qed.
Print Assumptions c12_woe_insert_writes_nothing.

Theorem c12_woe_eviction_written : forall c s v l a,
  woi c = false -> accepts c = true -> kmem s = Some (v, l, a) -> l <> LInMem -> a <> Young ->
  ksubs (do_evict c s) = ksubs s ++ [v].
Proof.
  intros c s v l a Hw Ha Hm Hl Hy. rewrite subs_evict, Hm. unfold evict_submits. rewrite Hw, Ha. now destruct l, a.
Qed.
Print Assumptions c12_woe_eviction_written.

(* an entry loaded from disk is rewritten only if its block was marked for imminent reclaim (age Old, not Young) *)
Theorem c12_young_not_rewritten : forall c s v l, kmem s = Some (v, l, Young) -> ksubs (do_evict c s) = ksubs s.
Proof. intros c s v l Hm. rewrite subs_evict, Hm. unfold evict_submits. cbn. now rewrite !andb_false_r. Qed.
Print Assumptions c12_young_not_rewritten.

(* in-memory-only advice never reaches the disk: not at insert, not at eviction, not at close *)
Theorem c12_inmem_insert : forall c s, ksubs (do_insert c s LInMem) = ksubs s.
Proof. intros c s. rewrite subs_insert. unfold insert_submits, insert_enqueues. now rewrite andb_false_r. Qed.
Print Assumptions c12_inmem_insert.
Theorem c12_inmem_eviction : forall c s v a, kmem s = Some (v, LInMem, a) -> ksubs (do_evict c s) = ksubs s.
Proof. intros c s v a Hm. rewrite subs_evict, Hm. unfold evict_submits. cbn. now rewrite andb_false_r. Qed.
Print Assumptions c12_inmem_eviction.
Theorem c12_inmem_close : forall c s b v a, kmem s = Some (v, LInMem, a) -> ksubs (do_close c s b) = ksubs s.
Proof.
  intros c s b v a Hm. rewrite subs_close. destruct (foc c && negb (woi c)); [|reflexivity].
  eapply c12_inmem_eviction, Hm.
Qed.
Print Assumptions c12_inmem_close.

(* ... along every history whatsoever (any advice for other versions of the key, any interleaving): a version inserted
   with in-memory-only advice is never submitted, and is nowhere on the disk tier (write queue, pipeline, index, device,
   lookups in flight) *)
Theorem c12_inmem_never_on_disk : forall c l v,
  In v (kinmem (krun c init_k l)) ->
  ~ In v (ksubs (krun c init_k l)) /\ ~ In v (dvers (krun c init_k l)).
Proof.
  intros c l v Hin. pose proof (vinv_run c l init_k vinv_init) as HV. split; [exact (vM _ HV _ Hin)|].
  intros Hd%dvers_held. exact (vM _ HV _ Hin (vD _ HV _ Hd)).
Qed.
Print Assumptions c12_inmem_never_on_disk.

(* on-disk advice: not retained in memory, written if admitted *)
Theorem c12_ondisk_not_retained : forall c s, kmem (do_insert c s LOnDisk) = None.
Proof. intros c s. unfold do_insert, pipe_send. cbn [loc_eqb]. destruct (woi c); apply mem_enqueue. Qed.
Print Assumptions c12_ondisk_not_retained.
Theorem c12_ondisk_written : forall c s, accepts c = true -> ksubs (do_insert c s LOnDisk) = ksubs s ++ [knext s].
Proof. intros c s Ha. rewrite subs_insert. unfold insert_submits, insert_enqueues. now rewrite Ha. Qed.
Print Assumptions c12_ondisk_written.

(* rejected by the admission filter: never written *)
Theorem c12_rejected_insert : forall c s l, accepts c = false -> ksubs (do_insert c s l) = ksubs s.
Proof. intros c s l Ha. rewrite subs_insert. unfold insert_submits, insert_enqueues. now rewrite Ha. Qed.
Print Assumptions c12_rejected_insert.
Theorem c12_rejected_eviction : forall c s, accepts c = false -> ksubs (do_evict c s) = ksubs s.
Proof.
  intros c s Ha. rewrite subs_evict. unfold evict_submits. rewrite Ha. destruct (kmem s) as [[[v l] a]|]; [|reflexivity].
  now rewrite andb_false_r.
Qed.
Print Assumptions c12_rejected_eviction.

(* cache hits (and misses) cause no disk writes; neither do remove, the flusher, the reclaimer *)
Theorem c12_lookup_writes_nothing : forall s i a,
  ksubs (do_load_start s i) = ksubs s /\ ksubs (do_load_finish s i a) = ksubs s.
Proof.
  intros s i a. unfold do_load_start, do_load_finish. split; [now destruct (kmem s) as [[[]]|]|].
  destruct (find_load i (kload s)) as [[[v|] k]|]; try reflexivity.
  destruct (kmem s); [reflexivity|]. now destruct (k && memN v (kondisk s)).
Qed.
Print Assumptions c12_lookup_writes_nothing.
Theorem c12_background_creates_nothing : forall c s b fuel,
  ksubs (do_flush c s b) = ksubs s /\ ksubs (do_complete s) = ksubs s /\ ksubs (do_reclaim c s b) = ksubs s /\
  ksubs (drain c fuel b s) = ksubs s /\ ksubs (do_remove s) = ksubs s.
Proof.
  intros. split; [|split; [|split; [|split]]]; [apply bg_fields..|apply remove_submits_nothing];
    auto using bg_flush, bg_complete, bg_reclaim, bg_drain.
Qed.
Print Assumptions c12_background_creates_nothing.

(* close: nothing is written with flush-on-close off (or under write-on-insertion); with it on, what an eviction
   of the resident entry would write *)
Theorem c12_close_without_flush : forall c s b, foc c = false \/ woi c = true -> ksubs (do_close c s b) = ksubs s.
Proof. intros c s b H. rewrite subs_close. destruct H as [-> | ->]; [reflexivity|]. now rewrite andb_false_r. Qed.
Print Assumptions c12_close_without_flush.
Theorem c12_close_with_flush : forall c s b, foc c = true -> woi c = false -> ksubs (do_close c s b) = ksubs (do_evict c s).
Proof. intros c s b Hf Hw. now rewrite subs_close, Hf, Hw. Qed.
Print Assumptions c12_close_with_flush.

(* the origin fetch runs only after memory missed and the disk lookup missed or failed (M-FETCH, Fetch/Fetch.v:
   [started] lists the origin fetches whose future was built) *)
Theorem c12_memory_hit_starts_no_fetch : forall s c k ho hr pn v,
  Fetch.mlookup k (Fetch.mem s) = Some v -> Fetch.started (Fetch.call false s c k ho hr pn) = Fetch.started s.
Proof.
  intros s c k ho hr pn v Hm.
  destruct (FetchInv.call_frame false s c k ho hr pn) as (_ & [E|(Hn & _)]); [exact E|congruence].
Qed.
Print Assumptions c12_memory_hit_starts_no_fetch.
Theorem c12_disk_lookup_goes_first : forall s c k hr pn,
  Fetch.started (Fetch.call false s c k true hr pn) = Fetch.started s.
Proof.
  intros s c k hr pn.
  destruct (FetchInv.call_frame false s c k true hr pn) as (_ & [E|(_ & _ & Hn & _)]); [exact E|discriminate].
Qed.
Print Assumptions c12_disk_lookup_goes_first.
Theorem c12_fetch_only_after_disk_miss : forall s t o,
  Fetch.started (Fetch.poll_opt s t o) <> Fetch.started s -> o = Fetch.OMiss \/ o = Fetch.OErr.
Proof.
  intros s t o Hne. destruct o as [v| |]; auto. exfalso. apply Hne. apply FetchOrder.disk_hit_starts_nothing.
Qed.
Print Assumptions c12_fetch_only_after_disk_miss.

Example c12_nonvacuous :
  let woe := mkCfg false true false false true false in
  let wi := mkCfg true true false false true false in
  ksubs (krun woe init_k [KIns LDefault; KIns LDefault; KEvict; KIns LInMem; KEvict; KIns LOnDisk]) = [2; 4] /\
  ksubs (krun wi init_k [KIns LDefault; KIns LDefault; KEvict; KIns LInMem; KEvict; KIns LOnDisk]) = [1; 2; 4].
Proof. vm_compute. split; reflexivity. Qed.

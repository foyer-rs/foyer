(* C16  User callbacks run outside cache locks, so re-entrant use cannot deadlock.
   Lock-phase model of one API call (Mem/Reentrant.v): weighter / filter before the shard lock is taken, listener and
   destructors after the guard is dropped; callbacks may call the cache again (call trees of any shape and depth). *)
From Coq Require Import List.
From FV Require Import Mem.Reentrant.
Import ListNotations.

(* every call tree, entered by a thread that does not hold the shard lock, returns, not holding it *)
Theorem c16_reentrant_calls_return : forall c, exec false c false = Some false.
Proof.
  induction c as [pre post Hpre Hpost] using call_ind'. cbn [exec].
  (* [exec]'s inner loop over [pre], then over [post]: each call returns as it was entered, so the loop goes on *)
  induction Hpre as [|x l Hx _ IH]; [|rewrite Hx; exact IH].
  induction Hpost as [|x l Hx _ IH]; [reflexivity|rewrite Hx; exact IH].
Qed.
Print Assumptions c16_reentrant_calls_return.

(* the discipline matters: with a callback invoked inside the critical section, any callback that uses the cache blocks *)
Theorem c16_callbacks_inside_deadlock : forall pre post c,
  exec true (Call (c :: pre) post) false = None /\ exec true (Call [] (c :: post)) false = None.
Proof.
  (* [c] is entered with the lock held, and [exec true _ true] is [None] whatever the call *)
  intros pre post [p q]. split; reflexivity.
Qed.
Print Assumptions c16_callbacks_inside_deadlock.

Example c16_nonvacuous :
  let leaf := Call [] [] in
  exec false (Call [leaf; Call [leaf] [leaf]] [Call [] [Call [leaf] []]; leaf]) false = Some false /\
  exec true (Call [] [leaf]) false = None.
Proof. split; reflexivity. Qed.

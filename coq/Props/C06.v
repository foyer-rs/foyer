(* C06  Concurrent fetches of one key are coalesced and every caller is answered.
   The model is the repaired code (bug_close = false). *)
From Coq Require Import List NArith.
From FV Require Import Fetch.Fetch Fetch.FetchInv.
Import ListNotations.
Open Scope N_scope.

Definition reachable (s : fstate) : Prop := exists l, s = frun false init_f l.

Lemma reach_inv s : reachable s -> FInv s.
Proof. intros [l ->]. apply FInv_reach. Qed.
Print Assumptions reach_inv.

(* at most one task per key is still registered (not closed): two leaders for one key cannot both
   be running an origin fetch whose result would be delivered *)
Theorem c06_single_flight : forall s t1 t2,
  reachable s -> In t1 (tasks s) -> In t2 (tasks s) ->
  topen t1 = true -> topen t2 = true -> closed s t1 = false -> closed s t2 = false ->
  tkey t1 = tkey t2 -> t1 = t2.
Proof. intros s t1 t2 Hr. apply single_flight. apply reach_inv; assumption. Qed.
Print Assumptions c06_single_flight.

(* every unanswered caller sits in the in-flight entry of its key, whose leader task is alive *)
Theorem c06_registered : forall s c,
  reachable s -> result_of s c = Some RPending ->
  exists i t, In i (infls s) /\ In c (iwaiters i) /\ In t (tasks s) /\ tid t = iid i /\ tkey t = ikey i /\
              topen t = true /\ closed s t = false.
Proof.
  intros s c Hr Hp. apply reach_inv in Hr. destruct (fi_wait s Hr c Hp) as (i & Hi & Hw).
  destruct (fi_lead s Hr i Hi) as (t & Ht & A & B & _ & E & F).
  exists i, t. repeat split; auto.
Qed.
Print Assumptions c06_registered.

(* never hangs: resolving the future a task waits on strictly decreases a bounded measure, and when
   no task is left nobody is waiting *)
Theorem c06_progress_fetch : forall s f r x,
  reachable s -> find_req_task f (tasks s) = Some x -> (measure (fstep false s (AReq f r)) < measure s)%nat.
Proof.
  intros s f r x Hr E. destruct (find_req_task_In _ _ _ E) as [Hx Et]. cbn [fstep]. rewrite E.
  apply (polled_progress s x); auto using reach_inv. apply (poll_req_polled s x r f Et).
Qed.
Print Assumptions c06_progress_fetch.

Theorem c06_progress_disk : forall s c o x,
  reachable s -> find_opt_task c (tasks s) = Some x -> (measure (fstep false s (AOpt c o)) < measure s)%nat.
Proof.
  intros s c o x Hr E. destruct (find_opt_task_In _ _ _ E) as [Hx [rq Et]]. cbn [fstep]. rewrite E.
  apply (polled_progress s x); auto using reach_inv. apply (poll_opt_polled s x o rq Et).
Qed.
Print Assumptions c06_progress_disk.

Theorem c06_quiescent_answered : forall s,
  reachable s -> (forall t, In t (tasks s) -> topen t = false) -> forall c, result_of s c <> Some RPending.
Proof.
  intros s Hr Hq c Hp. destruct (c06_registered s c Hr Hp) as (i & t & _ & _ & Ht & _ & _ & Ho & _).
  rewrite (Hq t Ht) in Ho. discriminate.
Qed.
Print Assumptions c06_quiescent_answered.

(* a failed or cancelled fetch caches nothing, a disk miss caches nothing: memory changes only by an
   explicit insert/remove or by a successful fetch / disk hit (so the next call fetches again) *)
Theorem c06_failure_caches_nothing : forall s f x k,
  find_req_task f (tasks s) = Some x ->
  mlookup k (mem (fstep false s (AReq f FErr))) = mlookup k (mem s) /\
  mlookup k (mem (fstep false s (AReq f FPanic))) = mlookup k (mem s).
Proof.
  intros s f x k E. cbn [fstep]. rewrite E, !poll_req_failed by discriminate. auto.
Qed.
Print Assumptions c06_failure_caches_nothing.

(* closed scenarios evaluated by the kernel: coalescing + same entry; error to all; cancellation;
   donation of a later caller's fetch to a lookup-only leader *)
Example c06_same_entry :
  let s := frun false init_f [ACall 0 1 false true; ACall 1 1 false true; ACall 2 1 false false; AReq 0 (FOk 7)] in
  callers s = [(0, REntry 7); (1, REntry 7); (2, REntry 7)] /\ started s = [0] /\ mlookup 1 (mem s) = Some 7.
Proof. vm_compute. repeat split. Qed.

Example c06_error_to_all :
  let s := frun false init_f [ACall 0 1 false true; ACall 1 1 false true; AReq 0 FErr; ACall 2 1 false true] in
  callers s = [(0, RErr 0); (1, RErr 0); (2, RPending)] /\ started s = [0; 2] /\ mlookup 1 (mem s) = None.
Proof. vm_compute. repeat split. Qed.

Example c06_cancel :
  let s := frun false init_f [ACall 0 1 true true; ACall 1 1 true false; AOpt 0 OMiss; AReq 0 FPanic] in
  callers s = [(0, RErr 1); (1, RErr 1)].
Proof. vm_compute. reflexivity. Qed.

Example c06_donation :
  let s := frun false init_f [ACall 0 1 true false; ACall 1 1 true true; AOpt 0 OMiss; AReq 1 (FOk 9)] in
  callers s = [(0, REntry 9); (1, REntry 9)] /\ started s = [1].
Proof. vm_compute. repeat split. Qed.

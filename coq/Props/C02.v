(* C02  In-memory cache is linearizable per key under concurrent use.
   What is proved: (1) the specification - an atomic register whose reads may additionally miss - and the notion of a
   linearizable concurrent history over invocation/response stamps; (2) the history checker run on the real cache's
   concurrent histories never rejects a linearizable history (so every rejection it reports is a genuine violation);
   (3) the mechanism: operations that take effect atomically at one point inside their interval (the shard lock's
   critical section), in an order that follows the specification, give a linearizable history; (4) the sequential shard
   model, seen through one key, follows the specification.  That the real code's operations are atomic in this sense
   is what the concurrent runs test. *)
From Coq Require Import List NArith.
From FV Require Import Mem.Shard Mem.ShardThms Mem.Linear Mem.ShardRegister.
Import ListNotations.
Open Scope N_scope.

Theorem c02_checker_sound : forall h,
  NoDup (map eid h) -> linearizable h -> check h = true.
Proof. intros h _. apply check_sound. Qed.
Print Assumptions c02_checker_sound.

Theorem c02_atomic_effects_linearize : forall l : list (ev * N),
  points_ok 0 l -> seq_ok None (map fst l) -> linearizable (map fst l).
Proof. exact (atomic_points_linearizable 0). Qed.
Print Assumptions c02_atomic_effects_linearize.

(* the sequential memory shard (M-SHARD: every operation of every algorithm, victims arbitrary), seen through any one key,
   follows that specification: the events of any run - insert = write (a rejected / disk-only insert = delete), remove and
   clear = delete, get = read of what it returned - are a legal register-with-misses execution.  So, by the theorem above,
   if the real operations take effect atomically in some order inside their intervals, every concurrent history is
   linearizable *)
Theorem c02_shard_is_a_register : forall c cap ops k l,
  good c -> trace c (init_shard cap) ops k 1 = Some l -> seq_ok None l.
Proof.
  intros c cap ops k l Hg. apply (shard_follows_register c k Hg); [apply ShardRefs.Inv_init|left; reflexivity].
Qed.
Print Assumptions c02_shard_is_a_register.

(* the checker is not vacuous: it rejects a value superseded by a completed insert, a removed value, a value read
   before it was inserted - and accepts overlapping operations in either order *)
Example c02_checker_discriminates :
  check [mkEv 1 (KWrite 7) 1 2; mkEv 2 (KWrite 8) 3 4; mkEv 3 (KRead (Some 7)) 5 6] = false /\
  check [mkEv 1 (KWrite 7) 1 2; mkEv 2 KDelete 3 4; mkEv 3 (KRead (Some 7)) 5 6] = false /\
  check [mkEv 3 (KRead (Some 7)) 1 2; mkEv 1 (KWrite 7) 3 4] = false /\
  check [mkEv 1 (KWrite 7) 1 4; mkEv 2 (KWrite 8) 2 3; mkEv 3 (KRead (Some 7)) 5 6] = true /\
  check [mkEv 1 (KWrite 7) 1 4; mkEv 2 (KWrite 8) 2 3; mkEv 3 (KRead (Some 8)) 5 6] = true /\
  check [mkEv 1 (KWrite 7) 1 2; mkEv 2 KDelete 3 6; mkEv 3 (KRead (Some 7)) 4 5; mkEv 4 (KRead None) 7 8] = true.
Proof. repeat split; reflexivity. Qed.

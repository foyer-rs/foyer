(* C11  An explicit insert is not overwritten by an older in-flight fetch. *)
From Coq Require Import List NArith.
From FV Require Import Fetch.Fetch Fetch.FetchInv.
Import ListNotations.
Open Scope N_scope.

Definition reachable (s : fstate) : Prop := exists l, s = frun false init_f l.

(* the callers that were waiting for k when insert(k, v) completes all receive v *)
Theorem c11_waiters_get_v : forall s k v i c,
  reachable s -> find_infl k (infls s) = Some i -> In c (iwaiters i) -> result_of s c = Some RPending ->
  result_of (fstep false s (AInsert k v)) c = Some (REntry v) /\
  mlookup k (mem (fstep false s (AInsert k v))) = Some v.
Proof.
  intros s k v i c _ Hf Hw Hp. cbn [fstep]. rewrite !result_of_eq in *. rewrite do_insert_eq. unfold take_answer.
  rewrite Hf. cbn [with_mem settle mem callers mlookup].
  rewrite res_of_notify. apply existsb_In in Hw. rewrite Hw, Hp, N.eqb_refl. auto.
Qed.
Print Assumptions c11_waiters_get_v.

(* once a key holds v (in particular right after insert(k, v) returned), whatever happens next -
   late fetch results, disk-stage results, failures, cancellations, new callers, operations on other
   keys - the cache keeps v for k until k itself is explicitly inserted or removed again *)
Theorem c11_not_overwritten : forall s k v l,
  reachable s -> mlookup k (mem s) = Some v ->
  forallb (fun a => negb (touches k a)) l = true ->
  mlookup k (mem (frun false s l)) = Some v.
Proof.
  intros s k v l [l0 ->]. apply frun_keeps_value, FInv_reach.
Qed.
Print Assumptions c11_not_overwritten.

(* the model of the pinned snapshot (leader gets a fresh close flag; defect F3, fixed by c989a04)
   violates it: the late fetch result replaces the explicit insert *)
Theorem c11_refuted_F3 :
  exists l k v, mlookup k (mem (frun true init_f l)) <> Some v /\
                exists l1 l2, l = l1 ++ [AInsert k v] ++ l2 /\ forallb (fun a => negb (touches k a)) l2 = true.
Proof.
  exists [ACall 0 1 false true; AInsert 1 100; AReq 0 (FOk 7)], 1, 100. split.
  - vm_compute. discriminate.
  - exists [ACall 0 1 false true], [AReq 0 (FOk 7)]. split; reflexivity.
Qed.
Print Assumptions c11_refuted_F3.

Example c11_nonvacuous :
  let s := frun false init_f [ACall 0 1 true true; ACall 1 1 false true; AOpt 0 OMiss; AInsert 1 100] in
  callers s = [(0, REntry 100); (1, REntry 100)] /\
  mlookup 1 (mem (frun false s [AReq 0 (FOk 7); ACall 2 1 false true])) = Some 100.
Proof. vm_compute. repeat split. Qed.

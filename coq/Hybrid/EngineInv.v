(* The invariant of the one-key hybrid model (Hybrid/Engine.v).  [Inv] ties what the pipeline, the index and the device say
   about the key ([claims]) to the latest submission ([ktop]) and to the truth.  The steps fall into two kinds: the
   flusher's side ([bg_step]: adds no claim, leaves the user's side alone; proves [PInv]) and the user's side
   (leaves the pipeline's side alone; proves [UInv]); a user's call that submits goes through [inv_enq] (the resident
   version is submitted, then dropped if it does not stay) or [delete_core]. *)
From Coq Require Import List NArith Bool Lia Sorted.
From FV Require Import Base.ListX Hybrid.Engine.
Import ListNotations.
Open Scope N_scope.

Definition sub_seq (x : sub) : N := match x with SEntry _ sq | STomb sq | SReins _ sq => sq end.
Definition sub_claim (x : sub) : option N * N :=
  match x with SEntry v sq => (Some v, sq) | STomb sq => (None, sq) | SReins v sq => (Some v, sq) end.
Definition plain (x : sub) : bool := match x with SReins _ _ => false | _ => true end.
Definition pipe (s : kst) : list sub := ki s ++ kq s.
Definition idx_claims (i : option ient) : list (option N * N) :=
  match i with Some (IAddr sq v b) => [(Some v, sq)] | Some (ITomb sq) => [(None, sq)] | None => [] end.
Definition disk_claim (x : N * N * N) : option N * N := match x with (v, sq, b) => (Some v, sq) end.
Definition claims (s : kst) : list (option N * N) :=
  map sub_claim (pipe s) ++ idx_claims (kidx s) ++ map disk_claim (kdisk s).
Definition top_sub (t : option N * N) : sub :=
  match t with (Some v, sq) => SEntry v sq | (None, sq) => STomb sq end.
Definition idx_ge (i : option ient) (n : N) : Prop := i = None \/ exists e, i = Some e /\ n <= iseq e.

(* The latest submission [ktop s] opens or continues a RUN: the submissions from sequence [klo s] on, all with its
   content (re-submissions of one version, e.g. after a lookup brought it back to memory); [kdone s] says that one of
   them has completed, i.e. is indexed and no longer needs the keeper.
   A1-A4   the two counters bound what is claimed, the truth and [ktop], which lies inside its run
   B0      before any submission nothing is claimed
   B1, B2  nothing is claimed above [ktop]; from [klo] on claims carry its content, below [klo] older versions
   C, K2   the keeper holds only the run's version, and must until the run is done
   D, E, L, K3   memory against the truth and [ktop] (a record that is not Fresh came from the device)
   F, F2, G      what the index may hold: nothing from before the run once it is done; a latest tombstone exactly while
                 it is in the pipeline
   J4, J5, J3    the plain submissions (not reinsertions) in the pipeline are sorted and end in [ktop]; once done, all
                 belong to the run
   P, O    lookups in flight, lookups answered *)
Record Inv (s : kst) : Prop := mkInv {
  iA1 : forall cn sq, In (cn, sq) (claims s) -> sq < kseq s;
  iA2 : forall tc tsq, ktop s = Some (tc, tsq) -> tsq < kseq s /\ klo s <= tsq;
  iA3 : forall v sq, In (Some v, sq) (claims s) -> v < knext s;
  iA4 : forall v, ktruth s = Some v -> v < knext s;
  iB0 : ktop s = None -> claims s = [];
  iB1 : forall tc tsq, ktop s = Some (tc, tsq) ->
        forall cn sq, In (cn, sq) (claims s) -> sq <= tsq /\ (klo s <= sq -> cn = tc);
  iB2 : forall v tsq, ktop s = Some (Some v, tsq) ->
        forall v' sq, In (Some v', sq) (claims s) -> sq < klo s -> v' < v;
  iC : forall v, kkeep s = Some v -> exists tsq, ktop s = Some (Some v, tsq);
  iD : forall v l a, kmem s = Some (v, l, a) -> ktruth s = Some v;
  iE : forall v tsq, kmem s = None -> ktop s = Some (Some v, tsq) -> ktruth s = Some v;
  iF : forall v tsq, kdone s = true -> ktop s = Some (Some v, tsq) -> idx_ge (kidx s) (klo s);
  iF2 : forall v sq, In (SEntry v sq) (ki s) -> idx_ge (kidx s) sq;
  iG : forall tsq, ktop s = Some (None, tsq) ->
       (In (STomb tsq) (pipe s) -> kidx s = Some (ITomb tsq)) /\ (~ In (STomb tsq) (pipe s) -> kidx s = None);
  iJ4 : StronglySorted N.lt (map sub_seq (filter plain (pipe s)));
  iJ5 : forall x t, In x (pipe s) -> plain x = true -> ktop s = Some t -> In (top_sub t) (pipe s);
  iJ3 : forall v tsq, kdone s = true -> ktop s = Some (Some v, tsq) ->
        forall x, In x (pipe s) -> plain x = true -> klo s <= sub_seq x;
  iK2 : forall v tsq, kdone s = false -> ktop s = Some (Some v, tsq) -> kkeep s = Some v;
  iK3 : forall v l a, kmem s = Some (v, l, a) -> a <> Fresh -> kdone s = true /\ exists tsq, ktop s = Some (Some v, tsq);
  iL : forall vm l a, kmem s = Some (vm, l, a) ->
       (exists tsq, ktop s = Some (Some vm, tsq)) \/ (forall v' sq, In (Some v', sq) (claims s) -> v' < vm);
  iP : forall i v k, In (i, Some v, k) (kload s) ->
       (exists tsq, ktop s = Some (Some v, tsq)) /\ ktruth s = Some v /\ (k = false -> kdone s = true);
  iO : forall i r t, In (i, r, t) (kout s) -> r = None \/ r = t
}.

Lemma inv_init : Inv init_k.
Proof.
  constructor; cbn; intros; try discriminate; try contradiction; auto.
  - constructor.
Qed.

Ltac sproj :=
  cbn [kmem kkeep kq ki kidx kdisk ktlog kseq kload ktruth knext ktop klo kdone ksubs kinmem kout kondisk
       set_mem set_keep set_q set_i set_idx set_disk set_tlog set_load set_truth set_done add_out fst snd] in *.

(* over-approximates [do_flush]: [fl_drop] has no condition, and [fl_write]'s premise on the index is only what
   [inv_flush] needs *)
Inductive flushed (c : hcfg) (s : kst) (b : N) : kst -> Prop :=
| fl_idle : kq s = [] -> flushed c s b s
| fl_tomb sq q : kq s = STomb sq :: q ->
    flushed c s b (set_i (set_tlog (set_q s q) (if tomb c then ktlog s ++ [sq] else ktlog s)) (ki s ++ [STomb sq]))
| fl_drop v sq q : kq s = SReins v sq :: q -> flushed c s b (set_q s q)
| fl_write x v sq q : kq s = x :: q -> (x = SEntry v sq \/ x = SReins v sq) ->
    (x = SReins v sq -> bug_rr c = false -> exists v' b', kidx s = Some (IAddr sq v' b')) ->
    flushed c s b (set_i (set_idx (set_disk (set_q s q) (kdisk s ++ [(v, sq, b)])) (idx_insert (kidx s) (IAddr sq v b)))
                         (ki s ++ [x])).

Lemma do_flush_spec c s b : flushed c s b (do_flush c s b).
Proof.
  unfold do_flush. destruct (kq s) as [|[v sq|sq|v sq] q] eqn:Hq; try (econstructor; now eauto).
  destruct (bug_rr c) eqn:Hrr.
  - rewrite N.eqb_refl. eapply fl_write; eauto. congruence.
  - destruct (kidx s) as [[sq1 v1 b1|]|] eqn:Hi; cbn [idx_get]; try (eapply fl_drop; now eauto).
    destruct (N.eqb_spec sq1 sq) as [->|]; [|eapply fl_drop; now eauto].
    rewrite <- Hi. eapply fl_write; eauto.
Qed.

Lemma drain_ind c b (P : kst -> Prop) :
  (forall s, P s -> P (do_flush c s b)) -> (forall s, P s -> P (do_complete s)) ->
  forall fuel s, P s -> P (drain c fuel b s).
Proof.
  intros Hf Hc. induction fuel as [|f IH]; intros s HP; cbn [drain]; auto.
  destruct (ki s); [destruct (kq s)|]; auto.
Qed.

(* a queued item costs a flush and a completion, one awaiting completion only the latter *)
Lemma drain_empty c b : forall fuel s,
  (2 * length (kq s) + length (ki s) <= fuel)%nat -> pipe (drain c fuel b s) = [].
Proof.
  unfold pipe. induction fuel as [|f IH]; intros s Hf; cbn [drain].
  - destruct (kq s), (ki s); cbn in *; auto; lia.
  - destruct (ki s) as [|x i'] eqn:Hki.
    + destruct (do_flush_spec c s b) as [H|sq q H|v sq q H|x v sq q H _ _]; rewrite H in *; [now rewrite Hki|apply IH..];
        sproj; rewrite ?app_length, Hki; cbn in *; lia.
    + apply IH. unfold do_complete. rewrite Hki. destruct x; sproj; cbn in *; lia.
Qed.

Lemma drain_all_empty c b s : pipe (drain_all c b s) = [].
Proof. apply drain_empty. lia. Qed.

Lemma on_disk_spec d v sq b : on_disk d v sq b = true <-> In (v, sq, b) d.
Proof.
  unfold on_disk. rewrite existsb_exists. split.
  - intros ([[v' sq'] b'] & Hin & [[->%N.eqb_eq ->%N.eqb_eq]%andb_prop ->%N.eqb_eq]%andb_prop). exact Hin.
  - intros Hin. exists (v, sq, b). now rewrite !N.eqb_refl.
Qed.

Lemma disk_lookup2_some s v k : disk_lookup2 s = (Some v, k) ->
  k = true /\ kkeep s = Some v \/
  k = false /\ kkeep s = None /\ exists sq b, kidx s = Some (IAddr sq v b) /\ In (v, sq, b) (kdisk s).
Proof.
  unfold disk_lookup2. destruct (kkeep s); [intros [= -> <-]; auto|].
  destruct (kidx s) as [[sq v' b|]|]; cbn; try discriminate.
  destruct (on_disk (kdisk s) v' sq b) eqn:Ho; intros [= -> <-]. apply on_disk_spec in Ho. eauto 8.
Qed.

Lemma lookup_now_hit s v sq b :
  kmem s = None -> kkeep s = None -> kidx s = Some (IAddr sq v b) -> In (v, sq, b) (kdisk s) -> lookup_now s = Some v.
Proof.
  intros Hm Hk Hi Hd. unfold lookup_now, disk_lookup, disk_lookup2. rewrite Hm, Hk, Hi. cbn.
  now rewrite (proj2 (on_disk_spec _ _ _ _) Hd).
Qed.

Lemma served_from_device s v : kmem s = None -> kkeep s = None -> lookup_now s = Some v ->
  exists sq b, kidx s = Some (IAddr sq v b) /\ In (v, sq, b) (kdisk s).
Proof.
  intros Hm Hk Hl. unfold lookup_now, disk_lookup in Hl. rewrite Hm in Hl.
  destruct (disk_lookup2 s) as [r k] eqn:E. cbn in Hl. subst r.
  apply disk_lookup2_some in E as [[_ E]|(_ & _ & sq & b & H)]; [congruence|eauto].
Qed.

Lemma idx_insert_cases i e : idx_insert i e = Some e \/ idx_insert i e = i.
Proof. destruct i as [o|]; cbn; [destruct (iseq o <=? iseq e)|]; auto. Qed.
Lemma idx_insert_newer i e : (forall o, i = Some o -> iseq o <= iseq e) -> idx_insert i e = Some e.
Proof. destruct i as [o|]; cbn; auto. intros H. now rewrite (proj2 (N.leb_le _ _) (H o eq_refl)). Qed.
Lemma idx_remove_cases i sq : idx_remove i sq = i \/ idx_remove i sq = None.
Proof. destruct i as [e|]; cbn; auto. destruct (iseq e <=? sq); auto. Qed.
Lemma idx_insert_spec i e :
  exists e', idx_insert i e = Some e' /\ iseq e <= iseq e' /\ (forall o, i = Some o -> iseq o <= iseq e') /\
             (e' = e \/ i = Some e').
Proof.
  destruct i as [o|]; cbn.
  - destruct (N.leb_spec (iseq o) (iseq e)); [exists e|exists o]; repeat split; auto; try lia; intros o' Ho; inversion Ho; subst; lia.
  - exists e. repeat split; auto; try lia. intros o Ho; discriminate.
Qed.

Lemma idx_ge_insert i e n : n <= iseq e -> idx_ge (idx_insert i e) n.
Proof.
  intros Hn. destruct (idx_insert_spec i e) as (e' & -> & H1 & _). right. exists e'. split; auto. lia.
Qed.

Lemma idx_ge_trans i a b : idx_ge i b -> a <= b -> idx_ge i a.
Proof. intros [Hn|[e [He Hle]]] Hab; [left; auto|right; exists e; split; auto; lia]. Qed.
Lemma idx_ge_remove i n sq : idx_ge i n -> idx_ge (idx_remove i sq) n.
Proof. intros Hg. destruct (idx_remove_cases i sq) as [-> | ->]; [auto|now left]. Qed.

Lemma sorted_head_lt h rest :
  StronglySorted N.lt (map sub_seq (filter plain (h :: rest))) -> plain h = true ->
  forall x, In x rest -> plain x = true -> sub_seq h < sub_seq x.
Proof.
  cbn [filter]. intros Hs Hp x Hin Hpx. rewrite Hp in Hs. apply StronglySorted_inv in Hs as [_ Hall].
  rewrite Forall_forall in Hall. apply Hall, in_map, filter_In. auto.
Qed.
Lemma sorted_tail h rest :
  StronglySorted N.lt (map sub_seq (filter plain (h :: rest))) ->
  StronglySorted N.lt (map sub_seq (filter plain rest)).
Proof. cbn [filter]. destruct (plain h); [intros [? _]%StronglySorted_inv|]; auto. Qed.

Lemma sorted_app_lt l1 x l2 :
  StronglySorted N.lt (map sub_seq (filter plain (l1 ++ x :: l2))) -> plain x = true ->
  forall y, In y l1 -> plain y = true -> sub_seq y < sub_seq x.
Proof.
  induction l1 as [|a l1 IH]; cbn [app]; intros Hs Hp y Hin Hpy; [easy|destruct Hin as [->|Hin]].
  - apply (sorted_head_lt _ _ Hs Hpy); auto using in_elt.
  - apply IH; auto. exact (sorted_tail _ _ Hs).
Qed.

Lemma sorted_snoc l x :
  StronglySorted N.lt (map sub_seq (filter plain l)) -> plain x = true ->
  (forall y, In y l -> sub_seq y < sub_seq x) ->
  StronglySorted N.lt (map sub_seq (filter plain (l ++ [x]))).
Proof.
  intros Hs Hp Hlt. rewrite filter_app. cbn [filter]. rewrite Hp, map_app. apply StronglySorted_snoc; [exact Hs|].
  intros n Hn. apply in_map_iff in Hn. destruct Hn as [y [<- Hin]]. apply Hlt. apply filter_In in Hin. tauto.
Qed.

Lemma in_claims_idx s e : kidx s = Some e ->
  In (match e with IAddr sq v b => (Some v, sq) | ITomb sq => (None, sq) end) (claims s).
Proof. intros He. unfold claims. rewrite He, !in_app_iff. destruct e; cbn; auto. Qed.

Lemma in_claims_pipe s x : In x (pipe s) -> In (sub_claim x) (claims s).
Proof. intros Hin. apply in_or_app; left. now apply in_map. Qed.

Lemma in_claims_disk s v sq b : In (v, sq, b) (kdisk s) -> In (Some v, sq) (claims s).
Proof. intros Hin. unfold claims. rewrite !in_app_iff. right; right. exact (in_map disk_claim _ _ Hin). Qed.

Lemma claims_sub s s' :
  (forall x, In x (pipe s') -> In (sub_claim x) (claims s)) ->
  (forall y, In y (idx_claims (kidx s')) -> In y (claims s)) ->
  (forall d, In d (kdisk s') -> In (disk_claim d) (claims s)) ->
  incl (claims s') (claims s).
Proof.
  intros Hp Hi Hd y. unfold claims at 1. rewrite !in_app_iff, !in_map_iff.
  intros [[x [<- Hx]]|[Hy|[d [<- Hd']]]]; auto.
Qed.

Lemma claims_mono s s' :
  incl (pipe s') (pipe s) -> kidx s' = kidx s \/ kidx s' = None -> incl (kdisk s') (kdisk s) ->
  incl (claims s') (claims s).
Proof.
  intros Hp Hi Hd. apply claims_sub.
  - intros x Hx. apply in_claims_pipe, Hp, Hx.
  - destruct Hi as [->| ->]; [|intros y []]. intros y Hy. unfold claims. rewrite !in_app_iff. auto.
  - intros [[v sq] b] Hx. eapply in_claims_disk, Hd, Hx.
Qed.

Lemma pipe_flushed c s b s' : flushed c s b s' ->
  incl (pipe s') (pipe s) /\ forall x, In x (pipe s) -> plain x = true -> In x (pipe s').
Proof.
  unfold pipe. intros [Hq|sq q Hq|v sq q Hq|x v sq q Hq _ _]; sproj; rewrite ?Hq, <- ?app_assoc; auto using incl_refl.
  split; [auto using incl_app, incl_appl, incl_appr, incl_tl, incl_refl|].
  intros x [->|]%in_elt_inv; [discriminate|auto].
Qed.

Lemma claims_flush c s b : incl (claims (do_flush c s b)) (claims s).
Proof.
  destruct (pipe_flushed _ _ _ _ (do_flush_spec c s b)) as [Hp _].
  destruct (do_flush_spec c s b) as [Hq|sq q Hq|v sq q Hq|x v sq q Hq Hx _]; try (apply claims_mono; now auto using incl_refl).
  assert (Hxc : In (Some v, sq) (claims s)).
  { replace (Some v, sq) with (sub_claim x) by (destruct Hx; now subst). apply in_claims_pipe.
    unfold pipe. rewrite Hq. apply in_or_app; right; now left. }
  apply claims_sub.
  - intros y Hy. apply in_claims_pipe, Hp, Hy.
  - cbn [kidx set_i set_idx]. destruct (idx_insert_cases (kidx s) (IAddr sq v b)) as [-> | ->].
    + intros y [<-|[]]. exact Hxc.
    + intros y Hy. unfold claims. rewrite !in_app_iff. auto.
  - cbn [kdisk set_i set_idx set_disk]. intros d [Hd| ->]%In_snoc; [|exact Hxc].
    destruct d as [[vy sy] by']. eapply in_claims_disk, Hd.
Qed.

Lemma claims_complete s : incl (claims (do_complete s)) (claims s).
Proof.
  unfold do_complete. destruct (ki s) as [|h i'] eqn:Hki; [apply incl_refl|].
  assert (Hp : incl (i' ++ kq s) (pipe s)) by (unfold pipe; rewrite Hki; apply incl_tl, incl_refl).
  destruct h; apply claims_mono; auto using incl_refl. apply idx_remove_cases.
Qed.

Lemma reclaim_copies_eq c b copies : forall q idx,
  reclaim_copies c b copies q idx =
  let mine := filter (fun x => snd x =? b) copies in
  if reins c then (q ++ map (fun x => SReins (fst (fst x)) (snd (fst x))) mine, idx)
  else (q, fold_left (fun i x => idx_remove i (snd (fst x))) mine idx).
Proof.
  induction copies as [|[[v sq] b'] rest IH]; intros q idx; cbn [reclaim_copies filter snd].
  - cbn. rewrite app_nil_r. now destruct (reins c).
  - destruct (b' =? b); [|apply IH]. destruct (reins c); rewrite IH; cbn; now rewrite <- ?app_assoc.
Qed.

Lemma fold_idx_remove (l : list (N * N * N)) : forall i,
  let i' := fold_left (fun i x => idx_remove i (snd (fst x))) l i in
  i' = i \/ i' = None /\ exists e x, i = Some e /\ In x l /\ iseq e <= snd (fst x).
Proof.
  induction l as [|x l IH]; intros i; cbn; auto.
  destruct (IH (idx_remove i (snd (fst x)))) as [E|[E (e & y & He & Hy & Hle)]]; rewrite E.
  - destruct i as [e|]; cbn; auto. destruct (N.leb_spec (iseq e) (snd (fst x))); eauto 8.
  - right. split; auto. destruct (idx_remove_cases i (snd (fst x))) as [Hi|Hi]; rewrite Hi in He; [eauto 8|discriminate].
Qed.

Lemma do_reclaim_spec c s b : exists rs idx,
  do_reclaim c s b = set_disk (set_idx (set_q s (kq s ++ rs)) idx) (filter (fun x => negb (snd x =? b)) (kdisk s)) /\
  (forall x, In x rs -> exists v sq, x = SReins v sq /\ In (v, sq, b) (kdisk s)) /\
  (idx = kidx s \/ idx = None /\ exists e v sq b', kidx s = Some e /\ In (v, sq, b') (kdisk s) /\ iseq e <= sq).
Proof.
  unfold do_reclaim. rewrite reclaim_copies_eq. cbv zeta. destruct (reins c).
  - eexists _, _. split; [reflexivity|]. split; auto.
    intros x [[[v sq] b'] [<- [Hin Hb]%filter_In]]%in_map_iff. apply N.eqb_eq in Hb. cbn in Hb; subst b'. eauto.
  - exists [], (fold_left (fun i x => idx_remove i (snd (fst x))) (filter (fun x => snd x =? b) (kdisk s)) (kidx s)).
    rewrite app_nil_r. split; [reflexivity|]. split; [intros x []|].
    destruct (fold_idx_remove (filter (fun x => snd x =? b) (kdisk s)) (kidx s)) as [E|[E (e & [[v sq] b'] & He & [Hy _]%filter_In & Hle)]];
      eauto 10.
Qed.

Lemma claims_reclaim c s b : incl (claims (do_reclaim c s b)) (claims s).
Proof.
  destruct (do_reclaim_spec c s b) as (rs & idx & -> & Hrs & Hidx). apply claims_sub.
  - unfold pipe; cbn [ki kq set_q set_idx set_disk]. rewrite app_assoc.
    intros x [Hx|Hx]%in_app_or; [now apply in_claims_pipe|].
    destruct (Hrs _ Hx) as (v & sq & -> & Hin). eapply in_claims_disk, Hin.
  - cbn [kidx set_idx set_disk]. destruct Hidx as [->|[-> _]]; [|intros y []].
    intros y Hy. unfold claims. rewrite !in_app_iff. auto.
  - cbn [kdisk set_disk]. intros [[v sq] b'] [Hd _]%filter_In. eapply in_claims_disk, Hd.
Qed.

(* never written by a flusher, completion or reclaim step.  [kseq], [ktop], [klo] are in [pipe_side] too: both sides read
   them, only a submitting call ([inv_enq], [delete_core]) writes them *)
Definition user_side (s : kst) :=
  (kmem s, kseq s, kload s, ktruth s, knext s, ktop s, klo s, ksubs s, kinmem s, kout s, kondisk s).

(* last clause: what such a step logs is a claimed tombstone ([Inv] does not read [ktlog]; EngineVers.TInv does) *)
Definition bg_step (s s' : kst) : Prop :=
  user_side s' = user_side s /\ incl (claims s') (claims s) /\
  (forall v, kkeep s' = Some v -> kkeep s = Some v) /\ (kdone s = true -> kdone s' = true) /\
  (forall sq, In sq (ktlog s') -> In sq (ktlog s) \/ In (None, sq) (claims s)).

Lemma bg_fields s s' : bg_step s s' -> kmem s' = kmem s /\ ktruth s' = ktruth s /\ ktop s' = ktop s /\ ksubs s' = ksubs s.
Proof. now intros [[= -> _ _ -> _ -> _ -> _ _ _] _]. Qed.

Lemma bg_refl s : bg_step s s.
Proof. repeat split; auto using incl_refl. Qed.

Lemma bg_trans s1 s2 s3 : bg_step s1 s2 -> bg_step s2 s3 -> bg_step s1 s3.
Proof.
  intros (E1 & C1 & K1 & D1 & T1) (E2 & C2 & K2 & D2 & T2). repeat split; eauto using incl_tran; try congruence.
  intros sq [[|]%T1|]%T2; auto.
Qed.

Lemma bg_flush c s b : bg_step s (do_flush c s b).
Proof.
  split; [|split; [apply claims_flush|]]; destruct (do_flush_spec c s b) as [H|sq q H|v sq q H|x v sq q H _ _]; sproj; auto 6.
  do 2 (split; [auto|]). destruct (tomb c); [|auto]. intros sq0 [| ->]%In_snoc; [auto|right].
  apply (in_claims_pipe s (STomb sq)). unfold pipe. rewrite H. apply in_elt.
Qed.

Lemma bg_complete s : bg_step s (do_complete s).
Proof.
  split; [|split; [apply claims_complete|]]; unfold do_complete; destruct (ki s) as [|[v sq|sq|v sq] i']; sproj; auto 7.
  - split; [|split; [intros ->; now destruct (klo s <=? sq)|auto]]. destruct (kkeep s) as [vk|]; [|discriminate]. now destruct (vk =? v).
  - split; [auto|split; [intros ->; now destruct (klo s <=? sq)|auto]].
Qed.

Lemma bg_reclaim c s b : bg_step s (do_reclaim c s b).
Proof.
  split; [|split; [apply claims_reclaim|]]; unfold do_reclaim; destruct (reclaim_copies c b (kdisk s) (kq s) (kidx s)); sproj; auto.
Qed.

Lemma bg_drain c b fuel s : bg_step s (drain c fuel b s).
Proof. apply (drain_ind c b (bg_step s)); eauto using bg_refl, bg_trans, bg_flush, bg_complete. Qed.

(* A background step keeps fourteen clauses of [Inv]; what is left to show for it is [PInv], the clauses that tie the
   pipeline and the index to the latest submission. *)

(* [PInv] and [UInv] repeat clauses of [Inv] word for word and in its order: [inv_pinv], [inv_uinv] and [split_inv] rely
   on that *)
Record PInv (s : kst) : Prop := mkPInv {
  pF : forall v tsq, kdone s = true -> ktop s = Some (Some v, tsq) -> idx_ge (kidx s) (klo s);
  pF2 : forall v sq, In (SEntry v sq) (ki s) -> idx_ge (kidx s) sq;
  pG : forall tsq, ktop s = Some (None, tsq) ->
       (In (STomb tsq) (pipe s) -> kidx s = Some (ITomb tsq)) /\ (~ In (STomb tsq) (pipe s) -> kidx s = None);
  pJ4 : StronglySorted N.lt (map sub_seq (filter plain (pipe s)));
  pJ5 : forall x t, In x (pipe s) -> plain x = true -> ktop s = Some t -> In (top_sub t) (pipe s);
  pJ3 : forall v tsq, kdone s = true -> ktop s = Some (Some v, tsq) ->
        forall x, In x (pipe s) -> plain x = true -> klo s <= sub_seq x;
  pK2 : forall v tsq, kdone s = false -> ktop s = Some (Some v, tsq) -> kkeep s = Some v }.

Lemma inv_pinv s : Inv s -> PInv s.
Proof. intros []; now constructor. Qed.

Ltac split_inv H :=
  destruct H as [A1 A2 A3 A4 B0 B1 B2 C D E F F2 G J4 J5 J3 K2 K3 L P O].

Lemma inv_bg_step s s' : Inv s -> bg_step s s' -> PInv s' -> Inv s'.
Proof.
  intros HI ([= Hmem Hseq Hload Htruth Hnext Htop Hlo _ _ Hout _] & Hcl & Hk & Hd & _) [F' F2' G' J4' J5' J3' K2'].
  rewrite Htop in F', G', J5', J3', K2'. rewrite Hlo in F', J3'. split_inv HI.
  constructor; rewrite ?Hmem, ?Hseq, ?Hload, ?Htruth, ?Hnext, ?Htop, ?Hlo, ?Hout; try assumption; eauto.
  - (* B0 *) intros Hnone. apply incl_l_nil. rewrite <- (B0 Hnone). exact Hcl.
  - (* K3 *) intros v l a Hv Ha. destruct (K3 _ _ _ Hv Ha). auto.
  - (* L *) intros vm l a Hv. destruct (L _ _ _ Hv); eauto.
  - (* P *) intros i v k Hin. destruct (P _ _ _ Hin) as (P1 & P2 & P3). auto.
Qed.

(* A step on the user's side - memory, lookups in flight, answers, the stamps - leaves the thirteen clauses that read
   the pipeline's side alone; what is left to show for it is [UInv]. *)
Definition pipe_side (s : kst) := (kkeep s, kq s, ki s, kidx s, kdisk s, kseq s, ktop s, klo s, kdone s).

Record UInv (s : kst) : Prop := mkUInv {
  uA3 : forall v sq, In (Some v, sq) (claims s) -> v < knext s;
  uA4 : forall v, ktruth s = Some v -> v < knext s;
  uD : forall v l a, kmem s = Some (v, l, a) -> ktruth s = Some v;
  uE : forall v tsq, kmem s = None -> ktop s = Some (Some v, tsq) -> ktruth s = Some v;
  uK3 : forall v l a, kmem s = Some (v, l, a) -> a <> Fresh -> kdone s = true /\ exists tsq, ktop s = Some (Some v, tsq);
  uL : forall vm l a, kmem s = Some (vm, l, a) ->
       (exists tsq, ktop s = Some (Some vm, tsq)) \/ (forall v' sq, In (Some v', sq) (claims s) -> v' < vm);
  uP : forall i v k, In (i, Some v, k) (kload s) ->
       (exists tsq, ktop s = Some (Some v, tsq)) /\ ktruth s = Some v /\ (k = false -> kdone s = true);
  uO : forall i r t, In (i, r, t) (kout s) -> r = None \/ r = t }.

Lemma inv_uinv s : Inv s -> UInv s.
Proof. intros []; now constructor. Qed.

Lemma inv_user_step s s' : Inv s -> pipe_side s' = pipe_side s -> UInv s' -> Inv s'.
Proof.
  intros HI [= Hk Hq Hi Hx Hd Hs Ht Hlo Hdn] []. split_inv HI.
  assert (Hp : pipe s' = pipe s) by (unfold pipe; now rewrite Hq, Hi).
  assert (Hc : claims s' = claims s) by (unfold claims; now rewrite Hp, Hx, Hd).
  constructor; try assumption; rewrite ?Hc, ?Hp, ?Hk, ?Hi, ?Hx, ?Hs, ?Ht, ?Hlo, ?Hdn; assumption.
Qed.

(* the latest submission is the last plain one of the pipeline: taking an older one off the head does not remove it *)
Lemma top_stays s h rest x t :
  Inv s -> pipe s = h :: rest -> In x rest -> plain x = true -> ktop s = Some t -> In (top_sub t) rest.
Proof.
  intros HI Hp Hin Hpx Ht. pose proof (iJ5 s HI x t) as J. rewrite Hp in J.
  destruct J as [->|]; auto using in_cons. exfalso.
  assert (Hl : sub_seq (top_sub t) < sub_seq x).
  { pose proof (iJ4 s HI) as Hs. rewrite Hp in Hs. apply (sorted_head_lt _ _ Hs); auto. now destruct t as [[] ?]. }
  destruct t as [tc tsq]. destruct (iB1 s HI _ _ Ht (fst (sub_claim x)) (sub_seq x)) as [Hle _].
  - replace (_, _) with (sub_claim x) by now destruct x. apply in_claims_pipe. rewrite Hp. now right.
  - destruct tc; cbn in Hl; lia.
Qed.

Lemma inv_complete s : Inv s -> Inv (do_complete s).
Proof.
  intros HI. unfold do_complete. destruct (ki s) as [|h i'] eqn:Hki; [exact HI|].
  assert (Hpipe : pipe s = h :: (i' ++ kq s)) by (unfold pipe; now rewrite Hki).
  assert (Hhc : In (sub_claim h) (claims s)) by (apply in_claims_pipe; rewrite Hpipe; now left).
  pose proof (iJ4 s HI) as Hsort. rewrite Hpipe in Hsort.
  pose proof (bg_complete s) as Hbg. unfold do_complete in Hbg. rewrite Hki in Hbg.
  assert (HG : forall tsq, h <> STomb tsq -> ktop s = Some (None, tsq) ->
    (In (STomb tsq) (i' ++ kq s) -> kidx s = Some (ITomb tsq)) /\ (~ In (STomb tsq) (i' ++ kq s) -> kidx s = None)).
  { intros tsq Hh Ht. destruct (iG s HI _ Ht) as [G1 G2]. rewrite Hpipe in G1, G2.
    split; intros Hin; [apply G1; now right|apply G2; now intros [|]]. }
  (* once the head's completion sets [kdone], everything left in the pipeline is newer than the head *)
  assert (HJ3 : forall v tsq sq, plain h = true -> sub_seq h = sq ->
    (if klo s <=? sq then true else kdone s) = true -> ktop s = Some (Some v, tsq) ->
    forall x, In x (i' ++ kq s) -> plain x = true -> klo s <= sub_seq x).
  { intros v tsq sq Hph <- Hd Ht x Hin Hpx. destruct (kdone s) eqn:Hd0.
    - eapply (iJ3 s HI); eauto. rewrite Hpipe. now right.
    - destruct (N.leb_spec (klo s) (sub_seq h)); [|discriminate].
      pose proof (sorted_head_lt _ _ Hsort Hph x Hin Hpx). lia. }
  destruct h as [v sq|sq|v sq]; apply (inv_bg_step s _ HI Hbg).
  - constructor; unfold pipe; sproj.
    + (* F *) intros vt tsq Hd Ht. destruct (kdone s) eqn:Hd0; [eapply iF; eauto|].
      destruct (N.leb_spec (klo s) sq); [|discriminate].
      eapply idx_ge_trans; [eapply (iF2 s HI v sq); rewrite Hki; now left|auto].
    + (* F2 *) intros v0 sq0 Hin. apply (iF2 s HI v0). rewrite Hki. now right.
    + (* G *) intros tsq. now apply HG.
    + (* J4 *) exact (sorted_tail _ _ Hsort).
    + (* J5 *) intros x t. now apply (top_stays s _ _ x t HI Hpipe).
    + (* J3 *) intros vt tsq. now eapply HJ3.
    + (* K2 *) intros vt tsq Hd Ht. destruct (kdone s) eqn:Hd0; [now destruct (klo s <=? sq)|].
      destruct (N.leb_spec (klo s) sq) as [|Hgt]; [discriminate|]. rewrite (iK2 s HI _ _ Hd0 Ht).
      pose proof (iB2 s HI _ _ Ht _ _ Hhc Hgt). destruct (N.eqb_spec vt v); [lia|reflexivity].
  - assert (Hle : forall tsq tc, ktop s = Some (tc, tsq) -> sq <= tsq /\ (klo s <= sq -> None = tc)) by (intros; eapply (iB1 s HI); eauto).
    constructor; unfold pipe; sproj.
    + (* F *) intros vt tsq Hd Ht. apply idx_ge_remove. destruct (kdone s) eqn:Hd0; [eapply iF; eauto|].
      destruct (N.leb_spec (klo s) sq) as [Hlo|]; [|discriminate]. destruct (Hle _ _ Ht) as [_ Hc]. discriminate (Hc Hlo).
    + (* F2 *) intros v0 sq0 Hin. apply idx_ge_remove, (iF2 s HI v0). rewrite Hki. now right.
    + (* G *) intros tsq Ht. destruct (N.eq_dec sq tsq) as [->|Hne].
      * destruct (iG s HI _ Ht) as [G1 _]. rewrite G1 by (rewrite Hpipe; now left). cbn. rewrite N.leb_refl.
        split; [|reflexivity]. intros Hin. pose proof (sorted_head_lt _ _ Hsort eq_refl _ Hin eq_refl). cbn in *. lia.
      * destruct (HG tsq) as [G1 G2]; [congruence|auto|]. destruct (Hle _ _ Ht) as [? _].
        split; intros Hin; [rewrite (G1 Hin); cbn; destruct (N.leb_spec tsq sq); [lia|reflexivity]|now rewrite (G2 Hin)].
    + (* J4 *) exact (sorted_tail _ _ Hsort).
    + (* J5 *) intros x t. now apply (top_stays s _ _ x t HI Hpipe).
    + (* J3 *) intros vt tsq. now eapply HJ3.
    + (* K2 *) intros vt tsq Hd Ht. destruct (kdone s) eqn:Hd0; [now destruct (klo s <=? sq)|eapply iK2; eauto].
  - constructor; unfold pipe; sproj.
    + (* F *) exact (iF s HI).
    + (* F2 *) intros v0 sq0 Hin. apply (iF2 s HI v0). rewrite Hki. now right.
    + (* G *) intros tsq. now apply HG.
    + (* J4 *) exact (sorted_tail _ _ Hsort).
    + (* J5 *) intros x t. now apply (top_stays s _ _ x t HI Hpipe).
    + (* J3 *) intros vt tsq Hd Ht x Hin Hpx. eapply (iJ3 s HI); eauto. rewrite Hpipe. now right.
    + (* K2 *) exact (iK2 s HI).
Qed.

Lemma top_claim s tc tsq cn sq :
  Inv s -> ktop s = Some (tc, tsq) -> In (cn, sq) (claims s) -> sq <= tsq /\ (tsq <= sq -> cn = tc).
Proof.
  intros HI Ht Hc. destruct (iB1 s HI _ _ Ht _ _ Hc) as [Hle Hcn], (iA2 s HI _ _ Ht) as [_ Hlo].
  split; [auto|]. intros. apply Hcn. lia.
Qed.

Lemma top_tomb_no_addr s tsq sq v b : Inv s -> ktop s = Some (None, tsq) -> kidx s <> Some (IAddr sq v b).
Proof.
  intros HI Ht Hi. destruct (iG s HI _ Ht) as [G1 G2]. rewrite G2 in Hi; [discriminate|].
  intros Hin%G1. congruence.
Qed.

Lemma inv_flush c s b : bug_rr c = false -> Inv s -> Inv (do_flush c s b).
Proof.
  intros Hrr HI. pose proof (bg_flush c s b) as Hbg.
  destruct (do_flush_spec c s b) as [Hq|sq q Hq|v sq q Hq|x v sq q Hq Hx Hidx]; [exact HI|..];
    apply (inv_bg_step s _ HI Hbg);
    assert (Hpipe : pipe s = ki s ++ _ :: q) by (unfold pipe; now rewrite Hq).
  - (* a tombstone is logged *)
    destruct (inv_pinv s HI) as [F F2 G J4 J5 J3 K2]. constructor; unfold pipe; sproj; rewrite <- ?app_assoc; cbn [app]; rewrite <- ?Hpipe; auto.
    (* F2 *) intros v0 sq0 [Hin|[=]]%In_snoc. eauto.
  - (* a reinsertion is dropped *)
    destruct (pipe_flushed c s b _ (fl_drop c s b v sq q Hq)) as [Hsub Hback]. unfold pipe in Hsub, Hback at 2. sproj.
    destruct (inv_pinv s HI) as [F F2 G J4 J5 J3 K2]. constructor; unfold pipe; sproj; eauto.
    + (* G *) intros tsq Ht. destruct (G _ Ht) as [G1 G2]. split; [auto|]. intros Hn. apply G2. contradict Hn. now apply Hback.
    + (* J4 *) rewrite Hpipe, filter_app in J4. now rewrite filter_app.
    + (* J5 *) intros y t Hin Hpy Ht. apply Hback; [eauto|now destruct t as [[] ?]].
  - (* an entry or a reinsertion is written and indexed *)
    assert (Hxin : In x (pipe s)) by (rewrite Hpipe; apply in_elt).
    assert (Hxc : In (Some v, sq) (claims s)).
    { replace (Some v, sq) with (sub_claim x) by (destruct Hx; now subst). now apply in_claims_pipe. }
    assert (Hp' : (ki s ++ [x]) ++ q = pipe s) by now rewrite Hpipe, <- app_assoc.
    pose proof (iJ4 s HI) as Hsort. rewrite Hpipe in Hsort.
    destruct (idx_insert_spec (kidx s) (IAddr sq v b)) as (e' & He & E1 & E2 & _). cbn in E1.
    destruct (inv_pinv s HI) as [F F2 G J4 J5 J3 K2]. constructor; unfold pipe; sproj; rewrite ?Hp'; auto.
    + (* F *) intros vt tsq Hd Ht. apply idx_ge_insert. destruct Hx as [->| ->]; [now apply (J3 _ _ Hd Ht _ Hxin)|].
      destruct (Hidx eq_refl Hrr) as (v' & b' & Hi). destruct (F _ _ Hd Ht) as [|(o & Ho & Hle)]; [congruence|].
      rewrite Hi in Ho. now injection Ho as <-.
    + (* F2 *) intros v0 sq0 Hin. rewrite He. right. exists e'. split; auto. apply In_snoc in Hin as [Hin|<-]; [|destruct Hx as [[= -> ->]|[=]]; lia].
      destruct (F2 _ _ Hin) as [Hn|(o & Ho & Hle)]; [|specialize (E2 _ Ho); lia].
      destruct Hx as [->| ->].
      * pose proof (sorted_app_lt _ _ _ Hsort eq_refl _ Hin eq_refl). cbn in *. lia.
      * destruct (Hidx eq_refl Hrr) as (v' & b' & Hi). congruence.
    + (* G *) intros tsq Ht. destruct Hx as [->| ->].
      * (* a tombstone submitted after this entry is in the index already and stays *)
        destruct (iG s HI _ Ht) as [G1 _]. destruct (top_claim s _ _ _ _ HI Ht Hxc) as [_ Hc].
        pose proof (iJ5 s HI _ _ Hxin eq_refl Ht) as Hin. rewrite (G1 Hin). split; [intros _|now intros []]. cbn.
        destruct (N.leb_spec tsq sq) as [Hge|]; [|reflexivity]. discriminate (Hc Hge).
      * destruct (Hidx eq_refl Hrr) as (v' & b' & Hi). now destruct (top_tomb_no_addr s _ _ _ _ HI Ht Hi).
Qed.

Lemma inv_reclaim c s b : Inv s -> Inv (do_reclaim c s b).
Proof.
  intros HI. pose proof (bg_reclaim c s b) as Hbg.
  destruct (do_reclaim_spec c s b) as (rs & idx & E & Hrs & Hidx). rewrite E in *.
  apply (inv_bg_step s _ HI Hbg).
  assert (Hp' : ki s ++ kq s ++ rs = pipe s ++ rs) by apply app_assoc.
  assert (Hplain : forall x, In x (pipe s ++ rs) -> plain x = true -> In x (pipe s)).
  { intros x [|Hx]%in_app_or Hpx; auto. now destruct (Hrs _ Hx) as (v & sq & -> & _). }
  assert (Hge : forall n, idx_ge (kidx s) n -> idx_ge idx n).
  { intros n Hg. destruct Hidx as [->|[-> _]]; [auto|now left]. }
  destruct (inv_pinv s HI) as [F F2 G J4 J5 J3 K2]. constructor; unfold pipe; sproj; rewrite ?Hp'; eauto.
  - (* G *) intros tsq Ht. destruct (G _ Ht) as [G1 G2]. split.
    + intros Hin%Hplain; [|reflexivity]. destruct Hidx as [->|[-> (e & v & sq & b' & E1 & E2 & E3)]]; auto.
      (* the index entry is that tombstone, newer than every copy on the device *)
      exfalso. rewrite (G1 Hin) in E1. injection E1 as <-. cbn in E3.
      destruct (top_claim s _ _ _ _ HI Ht (in_claims_disk s _ _ _ E2)) as [_ Hcn]. discriminate (Hcn E3).
    + intros Hnin. destruct Hidx as [->|[-> _]]; auto. apply G2. contradict Hnin. now apply in_or_app; left.
  - (* J4 *) rewrite filter_app, (filter_none plain rs), app_nil_r; [exact J4|]. intros x Hx. now destruct (Hrs _ Hx) as (v & sq & -> & _).
  - (* J5 *) intros x t Hin Hpx Ht. apply in_or_app; left. eauto.
Qed.

(* C01's mechanism: the index is replaced only by an equal or higher sequence and is updated before the keeper lets go *)
Lemma idx_hit_top s sq v b :
  Inv s -> kkeep s = None -> kidx s = Some (IAddr sq v b) ->
  exists tsq, ktop s = Some (Some v, tsq) /\ kdone s = true.
Proof.
  intros H Hk Hi. pose proof (in_claims_idx s _ Hi) as Hc. cbn in Hc.
  destruct (ktop s) as [[[vt|] tsq]|] eqn:Ht.
  - destruct (kdone s) eqn:Hd; [|pose proof (iK2 s H _ _ Hd Ht); congruence].
    destruct (iF s H _ _ Hd Ht) as [Hn|(e & He & Hle)]; [congruence|].
    rewrite Hi in He. injection He as <-. destruct (iB1 s H _ _ Ht _ _ Hc) as [_ Heq].
    specialize (Heq Hle) as [= ->]. eauto.
  - now destruct (top_tomb_no_addr s _ _ _ _ H Ht Hi).
  - rewrite (iB0 s H Ht) in Hc. contradiction.
Qed.

Lemma disk_lookup_top s v k : Inv s -> kmem s = None -> disk_lookup2 s = (Some v, k) ->
  (exists tsq, ktop s = Some (Some v, tsq)) /\ ktruth s = Some v /\ (k = false -> kdone s = true).
Proof.
  intros HI Hm [[-> Hk]|(-> & Hk & sq & b & Hi & _)]%disk_lookup2_some.
  - destruct (iC s HI _ Hk) as [tsq Ht]. split; [eauto|]. split; [eapply iE; eauto|discriminate].
  - destruct (idx_hit_top s _ _ _ HI Hk Hi) as (tsq & Ht & Hd). split; [eauto|]. split; [eapply iE; eauto|auto].
Qed.

Lemma lookup_now_fresh s r : Inv s -> lookup_now s = Some r -> ktruth s = Some r.
Proof.
  intros HI Hl. unfold lookup_now, disk_lookup in Hl. destruct (kmem s) as [[[v l0] a]|] eqn:Hm.
  - injection Hl as <-. exact (iD s HI _ _ _ Hm).
  - destruct (disk_lookup2 s) as [r' k] eqn:E. cbn in Hl. subst r'. apply (disk_lookup_top s r k HI Hm E).
Qed.

Lemma inv_load_start s i : Inv s -> Inv (do_load_start s i).
Proof.
  intros HI. apply (inv_user_step s _ HI); unfold do_load_start; destruct (kmem s) as [[[v l] a]|] eqn:Hm; try reflexivity;
    destruct (inv_uinv s HI); constructor; sproj; auto.
  - intros i0 r t [Hin|[= -> -> ->]]%In_snoc; eauto. right. symmetry. eauto.
  - intros i0 v k [Hin|[= -> Hv Hk]]%In_snoc; eauto.
    apply (disk_lookup_top s v k HI Hm). now rewrite (surjective_pairing (disk_lookup2 s)), Hv, Hk.
Qed.

Lemma find_load_in i l r k : find_load i l = Some (r, k) -> In (i, r, k) l.
Proof.
  induction l as [|[[j r'] k'] l IH]; cbn; [discriminate|].
  destruct (N.eqb_spec i j) as [->|]; [intros [= -> ->]|]; auto.
Qed.
Lemma del_load_in i l x : In x (del_load i l) -> In x l.
Proof.
  induction l as [|[[j r'] k'] l IH]; cbn; [auto|].
  destruct (N.eqb i j); cbn; intuition.
Qed.

Lemma inv_load_finish s i a : Inv s -> Inv (do_load_finish s i a).
Proof.
  intros HI. unfold do_load_finish.
  destruct (find_load i (kload s)) as [[r fromk]|] eqn:Hf; [|exact HI]. apply find_load_in in Hf.
  assert (HO : forall i0 r0 t, In (i0, r0, t) (kout s ++ [(i, r, ktruth s)]) -> r0 = None \/ r0 = t).
  { intros i0 r0 t [Hin|[= -> -> ->]]%In_snoc; [eapply iO; eauto|].
    destruct r as [v|]; auto. right. now destruct (iP s HI _ _ _ Hf) as (_ & -> & _). }
  assert (HP : forall i0 v k, In (i0, Some v, k) (del_load i (kload s)) ->
       (exists tsq, ktop s = Some (Some v, tsq)) /\ ktruth s = Some v /\ (k = false -> kdone s = true)).
  { intros i0 v k Hin%del_load_in. eapply iP; eauto. }
  assert (Hsame : Inv (add_out (set_load s (del_load i (kload s))) (i, r, ktruth s))).
  { apply (inv_user_step s _ HI); [reflexivity|]. destruct (inv_uinv s HI). constructor; sproj; auto. }
  destruct r as [v|]; [|exact Hsame]. destruct (kmem s) eqn:Hm; [exact Hsame|].
  destruct (fromk && memN v (kondisk s)); [exact Hsame|].
  (* the value read enters memory: it is the latest submission's, and the truth *)
  destruct (iP s HI _ _ _ Hf) as ([tsq Ht] & Htr & Hd).
  apply (inv_user_step s _ HI); [reflexivity|]. destruct (inv_uinv s HI). constructor; sproj; auto; try discriminate.
  - intros v0 l0 a0 [= <- <- <-]; auto.
  - intros v0 l0 a0 [= <- <- <-] Hne. split; [|eauto]. destruct fromk; [contradiction|auto].
  - intros vm l0 a0 [= <- <- <-]. left; eauto.
Qed.

Definition enq_state (s1 : kst) (v : N) : kst :=
  let sq := kseq s1 in
  mkK (kmem s1) (Some v) (kq s1 ++ [SEntry v sq]) (ki s1) (kidx s1) (kdisk s1) (ktlog s1)
      (sq + 1) (kload s1) (ktruth s1) (knext s1) (Some (Some v, sq))
      (match ktop s1 with Some (Some v', _) => if v' =? v then klo s1 else sq | _ => sq end)
      (match ktop s1 with Some (Some v', _) => if v' =? v then kdone s1 else false | _ => false end)
      (ksubs s1 ++ [v]) (kinmem s1) (kout s1) (kondisk s1).

Definition ins_state (s : kst) (l : loc) : kst :=
  let v := knext s in
  mkK (if loc_eqb l LOnDisk then None else Some (v, l, Fresh)) (kkeep s) (kq s) (ki s) (kidx s) (kdisk s) (ktlog s)
      (kseq s) [] (Some v) (v + 1) (ktop s) (klo s) (kdone s) (ksubs s)
      (match l with LInMem => kinmem s ++ [v] | _ => kinmem s end)
      (kout s ++ map (fun x => (fst (fst x), Some v, Some v)) (kload s))
      (if loc_eqb l LOnDisk then kondisk s ++ [v] else kondisk s).

Lemma store_enqueue_eq c s v a :
  store_enqueue c s v a =
  if accepts c then (if age_eqb a Young then set_keep s None else enq_state s v) else store_delete s.
Proof. unfold store_enqueue. now destruct (accepts c), a. Qed.

Definition insert_enqueues (c : hcfg) (l : loc) : bool :=
  match l with LDefault => woi c | LInMem => false | LOnDisk => true end.

Lemma do_insert_eq c s l :
  do_insert c s l = if insert_enqueues c l then store_enqueue c (ins_state s l) (knext s) Fresh else ins_state s l.
Proof. unfold do_insert, pipe_send, insert_enqueues. fold (ins_state s l). now destruct (woi c), l. Qed.

Lemma do_evict_eq c s :
  do_evict c s = match kmem s with
                 | Some (v, l, a) => if negb (woi c) && negb (loc_eqb l LInMem)
                                     then store_enqueue c (set_mem s None) v a else set_mem s None
                 | None => s
                 end.
Proof. unfold do_evict, pipe_send. destruct (kmem s) as [[[v l] a]|]; [|reflexivity]. now destruct (woi c), l. Qed.

Lemma claims_snoc s s' x :
  pipe s' = pipe s ++ [x] -> idx_claims (kidx s') = idx_claims (kidx s) \/ idx_claims (kidx s') = [sub_claim x] ->
  kdisk s' = kdisk s ->
  forall y, In y (claims s') -> In y (claims s) \/ y = sub_claim x.
Proof.
  intros Hp Hi Hd y. unfold claims. rewrite Hp, Hd, map_app, !in_app_iff. cbn.
  destruct Hi as [-> | ->]; cbn; intuition.
Qed.

Lemma claims_enq s v y : In y (claims (enq_state s v)) -> In y (claims s) \/ y = (Some v, kseq s).
Proof. apply (claims_snoc s _ (SEntry v (kseq s))); auto. apply app_assoc. Qed.

Lemma claims_delete s y : In y (claims (store_delete s)) -> In y (claims s) \/ y = (None, kseq s).
Proof.
  apply (claims_snoc s _ (STomb (kseq s))); [apply app_assoc| |reflexivity].
  cbn. destruct (idx_insert_cases (kidx s) (ITomb (kseq s))) as [-> | ->]; auto.
Qed.

(* store.delete on a state that need not satisfy the whole invariant (memory may just have been changed).  Premises: A1,
   A3, A4, D, [PInv], O of [s1]; then what the caller knows about memory and the lookups in flight *)
Lemma delete_core s1 :
  (forall cn sq, In (cn, sq) (claims s1) -> sq < kseq s1) ->
  (forall v sq, In (Some v, sq) (claims s1) -> v < knext s1) ->
  (forall v, ktruth s1 = Some v -> v < knext s1) ->
  (forall v l a, kmem s1 = Some (v, l, a) -> ktruth s1 = Some v) ->
  PInv s1 ->
  (forall i r t, In (i, r, t) (kout s1) -> r = None \/ r = t) ->
  (forall vm l a, kmem s1 = Some (vm, l, a) -> a = Fresh /\ forall v' sq, In (Some v', sq) (claims s1) -> v' < vm) ->
  (forall i v k, ~ In (i, Some v, k) (kload s1)) ->
  Inv (store_delete s1).
Proof.
  intros A1 A3 A4 D [_ F2 _ J4 _ _ _] O Hmem Hload. pose proof (claims_delete s1) as Hcl.
  assert (Hold : forall x, In x (pipe s1) -> sub_seq x < kseq s1).
  { intros x Hx%in_claims_pipe. destruct x; exact (A1 _ _ Hx). }
  assert (Hp' : pipe (store_delete s1) = pipe s1 ++ [STomb (kseq s1)]) by apply app_assoc.
  (* the tombstone takes the index: whatever was there is older *)
  assert (Hidx : kidx (store_delete s1) = Some (ITomb (kseq s1))).
  { apply idx_insert_newer. intros o Hc%(in_claims_idx s1). apply N.lt_le_incl. destruct o; exact (A1 _ _ Hc). }
  constructor; rewrite ?Hp', ?Hidx; try assumption; try (cbn; intros; discriminate).
  - (* A1 *) intros cn sq0 [Hc%A1|[= _ ->]]%Hcl; cbn; lia.
  - (* A2 *) intros tc tsq [= _ <-]. cbn. lia.
  - (* A3 *) intros v sq0 [Hc|[=]]%Hcl. exact (A3 _ _ Hc).
  - (* B1 *) intros tc tsq [= <- <-] cn sq0 [Hc%A1|[= -> ->]]%Hcl; cbn; split; auto; lia.
  - (* F2 *) intros v sq0 Hin. right. eexists; split; [reflexivity|]. cbn. apply N.lt_le_incl, (Hold (SEntry v sq0)), in_or_app. auto.
  - (* G *) intros tsq [= <-]. split; [reflexivity|]. intros []. apply in_or_app. right. now left.
  - (* J4 *) apply sorted_snoc; auto.
  - (* J5 *) intros x t _ _ [= <-]. apply in_or_app. right. now left.
  - (* K3 *) intros v l a [Ha _]%Hmem. contradiction.
  - (* L *) intros vm l a [_ Hn]%Hmem. right. intros v' sq0 [Hc|[=]]%Hcl. eauto.
  - (* P *) intros i v k Hin. now destruct (Hload _ _ _ Hin).
Qed.

(* store.enqueue of the resident version.  A submission touches other fields than the removal of the record from memory:
   an eviction, and an insert with on-disk advice (whose record never stays), are read as "submit, then drop", so that
   the submission finds a state with the invariant. *)
Lemma inv_enq s v l a : Inv s -> kmem s = Some (v, l, a) -> Inv (enq_state s v).
Proof.
  intros HI Hm. pose proof (claims_enq s v) as Hcl. pose proof (iL s HI _ _ _ Hm) as Hnew. split_inv HI.
  assert (Hold : forall x, In x (pipe s) -> sub_seq x < kseq s).
  { intros x Hx%in_claims_pipe. destruct x; exact (A1 _ _ Hx). }
  assert (Hp' : pipe (enq_state s v) = pipe s ++ [SEntry v (kseq s)]) by apply app_assoc.
  (* the submission continues the run of submissions of [v], or it starts a new run and everything claimed is older *)
  assert (Hrun : (exists tsq, ktop s = Some (Some v, tsq) /\ klo (enq_state s v) = klo s /\ kdone (enq_state s v) = kdone s) \/
                 klo (enq_state s v) = kseq s /\ kdone (enq_state s v) = false /\
                 forall v' sq, In (Some v', sq) (claims s) -> v' < v).
  { cbn. destruct (ktop s) as [[[vt|] tsq]|] eqn:Ht; try (right; destruct Hnew as [[? [=]]|]; now auto).
    destruct (N.eqb_spec vt v) as [->|Hne]; [left; eauto|right]. destruct Hnew as [[? [= ->]]|]; [easy|auto]. }
  assert (Hlo : klo (enq_state s v) <= kseq s).
  { destruct Hrun as [(tsq & Ht & -> & _)|(-> & _)]; [destruct (A2 _ _ Ht)|]; lia. }
  constructor; rewrite ?Hp'; try assumption; try (cbn; intros; discriminate).
  - (* A1 *) intros cn sq0 [Hc%A1|[= _ ->]]%Hcl; cbn; lia.
  - (* A2 *) intros tc tsq [= _ <-]. split; [cbn; lia|exact Hlo].
  - (* A3 *) intros v0 sq0 [Hc|[= <- _]]%Hcl; [exact (A3 _ _ Hc)|exact (A4 _ (D _ _ _ Hm))].
  - (* B1 *) intros tc tsq [= <- <-] cn sq0 [Hc|[= -> ->]]%Hcl; [|split; [lia|auto]].
    pose proof (A1 _ _ Hc). split; [lia|]. destruct Hrun as [(tsq & Ht & -> & _)|(-> & _)]; [apply (B1 _ _ Ht _ _ Hc)|lia].
  - (* B2 *) intros vt tsq [= <- <-] v' sq0 [Hc|[= -> ->]]%Hcl Hlt; [|lia].
    destruct Hrun as [(tsq & Ht & E' & _)|(_ & _ & Hn)]; [rewrite E' in Hlt; exact (B2 _ _ Ht _ _ Hc Hlt)|eauto].
  - (* C *) intros v0 [= <-]. cbn. eauto.
  - (* E *) intros v0 tsq Hn. cbn in Hn. congruence.
  - (* F *) intros v0 tsq Hd _. destruct Hrun as [(tsq1 & Ht & -> & E')|(_ & E' & _)]; rewrite E' in Hd; [eapply F; eauto|discriminate].
  - (* J4 *) apply sorted_snoc; auto.
  - (* J5 *) intros x t _ _ [= <-]. apply in_or_app. right. now left.
  - (* J3 *) intros v0 tsq Hd _ x [Hin| ->]%In_snoc Hpx; [|exact Hlo].
    destruct Hrun as [(tsq1 & Ht & -> & E')|(_ & E' & _)]; rewrite E' in Hd; [eapply J3; eauto|discriminate].
  - (* K2 *) intros v0 tsq _ [= <- _]. reflexivity.
  - (* K3: a record that is not Fresh is the latest submission's, so the run goes on, and stays done *)
    intros v0 l0 a0 Hm0 Ha. destruct (K3 _ _ _ Hm0 Ha) as [Hd [tsq Ht]]. cbn in Hm0 |- *.
    assert (v0 = v) by congruence. subst v0. rewrite Ht, N.eqb_refl. eauto.
  - (* L *) intros vm l0 a0 Hm0. left. cbn in Hm0 |- *. exists (kseq s). congruence.
  - (* P *) intros i v0 k Hin. destruct (P _ _ _ Hin) as ([tsq0 P1] & P2 & P3). assert (v0 = v) by (rewrite (D _ _ _ Hm) in P2; congruence). subst v0.
    split; [cbn; eauto|]. split; [auto|]. intros Hk. cbn. rewrite P1, N.eqb_refl. auto.
Qed.

(* the clauses that depend on the configuration.  [kW]: under write-on-insertion an eviction drops the resident record
   without submitting it; [kQ]: a rejected key has no value in flight ([no_some_loads]); [kNI]: [ok_act]'s condition *)
Record KInv (c : hcfg) (s : kst) : Prop := mkKInv {
  kI : Inv s;
  kW : woi c = true -> forall vm l a, kmem s = Some (vm, l, a) -> forall v tsq, ktop s = Some (Some v, tsq) -> v = vm;
  kQ : forall v tsq, ktop s = Some (Some v, tsq) -> accepts c = true;
  kNI : forall v l a, kmem s = Some (v, l, a) -> l <> LInMem }.

Lemma kinv_init c : KInv c init_k.
Proof. constructor; [apply inv_init|cbn; intros; discriminate..]. Qed.

Lemma inv_drop_mem_top s v l a :
  Inv s -> kmem s = Some (v, l, a) -> (forall v' tsq, ktop s = Some (Some v', tsq) -> v' = v) -> Inv (set_mem s None).
Proof.
  intros HI Hm Htop. apply (inv_user_step s _ HI); [reflexivity|]. destruct (inv_uinv s HI).
  constructor; sproj; auto; try discriminate. intros v0 tsq0 _ ->%Htop. eauto.
Qed.

(* K3: a record that is not Fresh is the completed latest submission, so nothing needs the keeper any more *)
Lemma inv_drop_mem_young s v l a :
  Inv s -> kmem s = Some (v, l, a) -> a <> Fresh -> Inv (set_keep (set_mem s None) None).
Proof.
  intros HI Hm Ha. destruct (iK3 s HI _ _ _ Hm Ha) as [Hd [tsq Ht]].
  assert (HI1 : Inv (set_mem s None)) by (apply (inv_drop_mem_top s v l a); auto; congruence).
  apply (inv_bg_step _ _ HI1).
  - split; [reflexivity|]. split; [apply incl_refl|]. split; [discriminate|auto].
  - destruct (inv_pinv _ HI1). constructor; auto. cbn. congruence.
Qed.

Lemma inv_enq_drop s v l a : Inv s -> kmem s = Some (v, l, a) -> Inv (set_mem (enq_state s v) None).
Proof.
  intros HI Hm. apply (inv_drop_mem_top _ v l a); [exact (inv_enq s v l a HI Hm)|exact Hm|]. now intros v' tsq [= <- _].
Qed.

Lemma inv_del_after_drop s :
  Inv s -> (forall i v k, ~ In (i, Some v, k) (kload s)) -> Inv (store_delete (set_mem s None)).
Proof. intros HI Hl. pose proof (inv_pinv s HI). destruct HI. now apply delete_core. Qed.

Lemma no_some_loads c s : KInv c s -> accepts c = false -> forall i v k, ~ In (i, Some v, k) (kload s).
Proof.
  intros [HI _ HQ _] Hadm i v k Hin. destruct (iP s HI _ _ _ Hin) as [[tsq Ht] _].
  rewrite (HQ _ _ Ht) in Hadm. discriminate.
Qed.

Lemma kinv_evict c s : KInv c s -> KInv c (do_evict c s).
Proof.
  intros HK. rewrite do_evict_eq. destruct (kmem s) as [[[v l] a]|] eqn:Hm; [|exact HK].
  pose proof HK as [HI HW HQ HNI].
  assert (Hl : loc_eqb l LInMem = false) by (destruct l; auto; now destruct (HNI _ _ _ Hm)).
  rewrite Hl, andb_true_r. destruct (woi c) eqn:Hwoi; cbn [negb].
  - (* write-on-insertion: what is dropped was submitted when it was inserted *)
    constructor; [eapply inv_drop_mem_top; eauto|..]; cbn; intros; try discriminate; eauto.
  - rewrite store_enqueue_eq. destruct (accepts c) eqn:Hadm; [destruct (age_eqb a Young) eqn:Ha|].
    + constructor; [eapply inv_drop_mem_young; eauto; now destruct a|..]; cbn; intros; try discriminate; eauto.
    + constructor; [exact (inv_enq_drop s v l a HI Hm)|..]; cbn; intros; try discriminate; auto.
    + constructor; [apply inv_del_after_drop; auto; eapply no_some_loads; eauto|..]; cbn; intros; discriminate.
Qed.

Lemma kinv_remove c s : KInv c s -> kload s = [] -> KInv c (do_remove s).
Proof.
  intros [HI HW HQ HNI] Hl. unfold do_remove. pose proof (inv_pinv s HI).
  constructor; [destruct HI; apply delete_core; cbn; rewrite ?Hl; now auto|cbn; intros; discriminate..].
Qed.

Lemma ins_out s l i r t : Inv s -> In (i, r, t) (kout (ins_state s l)) -> r = None \/ r = t.
Proof.
  intros HI Hin. cbn in Hin. apply in_app_or in Hin. destruct Hin as [Hin|Hin]; [eapply iO; eauto|].
  apply in_map_iff in Hin. destruct Hin as [x [Hx _]]. inversion Hx; subst. auto.
Qed.

(* A3 and A4 as [cbn] leaves them on [ins_state] *)
Lemma ins_state_lt s : Inv s ->
  (forall v sq, In (Some v, sq) (claims s) -> v < knext s + 1) /\ (forall v, Some (knext s) = Some v -> v < knext s + 1).
Proof. intros HI. split; [intros v sq Hin; pose proof (iA3 s HI _ _ Hin)|intros v [= <-]]; lia. Qed.

Definition ins_mem (s : kst) (l : loc) : kst := set_mem (ins_state s l) (Some (knext s, l, Fresh)).

Lemma inv_ins_mem s l : Inv s -> Inv (ins_mem s l).
Proof.
  intros HI. apply (inv_user_step s _ HI); [reflexivity|].
  destruct (ins_state_lt s HI). constructor; sproj; auto; try easy.
  - now intros v0 l0 a0 [= <- <- <-].
  - now intros v0 l0 a0 [= <- <- <-].
  - intros vm l0 a0 [= <- <- <-]. right. exact (iA3 s HI).
  - intros i r t. now apply (ins_out s l).
Qed.

Lemma inv_ins_enq s l : Inv s -> Inv (enq_state (ins_state s l) (knext s)).
Proof.
  (* by conversion: while the record stays, [ins_state] is [ins_mem]; with on-disk advice it is [ins_mem] with the record
     dropped, and the drop commutes with the submission *)
  intros HI%(inv_ins_mem s l). destruct l; try exact (inv_enq _ _ _ _ HI eq_refl).
  exact (inv_enq_drop _ _ _ _ HI eq_refl).
Qed.

Lemma inv_ins_del s l : Inv s -> Inv (store_delete (ins_state s l)).
Proof.
  intros HI. destruct (ins_state_lt s HI). pose proof (fun i r t => ins_out s l i r t HI) as HO. pose proof (inv_pinv s HI).
  destruct HI. apply delete_core; cbn; eauto; try easy; destruct (loc_eqb l LOnDisk); now intros v0 l0 a0 [= <- <- <-].
Qed.

Lemma inv_ins_state s l : Inv s -> loc_eqb l LOnDisk = false -> Inv (ins_state s l).
Proof. intros HI%(inv_ins_mem s l) Hl. now destruct l. Qed.

Lemma kinv_insert c s l : KInv c s -> l <> LInMem -> KInv c (do_insert c s l).
Proof.
  intros [HI HW HQ HNI] Hl. rewrite do_insert_eq.
  assert (Hmem : forall v0 l0 a0, kmem (ins_state s l) = Some (v0, l0, a0) -> v0 = knext s /\ l0 <> LInMem).
  { cbn. destruct (loc_eqb l LOnDisk); [discriminate|]. now intros v0 l0 a0 [= <- <- _]. }
  destruct (insert_enqueues c l) eqn:He.
  - rewrite store_enqueue_eq. cbn [age_eqb]. destruct (accepts c) eqn:Hadm.
    + constructor; [exact (inv_ins_enq s l HI)|..]; auto; cbn -[loc_eqb].
      * intros _ vm l0 a0 Hm v tsq [= <- _]. symmetry. eapply Hmem, Hm.
      * intros v0 l0 a0 Hm. eapply Hmem, Hm.
    + constructor; [exact (inv_ins_del s l HI)|..]; try (cbn; intros; discriminate).
      intros v0 l0 a0 Hm. eapply Hmem, Hm.
  - (* no submission: write-on-eviction, and the record stays in memory *)
    assert (Hw : woi c = false /\ loc_eqb l LOnDisk = false) by (destruct l; cbn in He; auto; now destruct Hl).
    destruct Hw as [Hw Hd]. constructor; [apply inv_ins_state; auto|..]; [now rewrite Hw|exact HQ|].
    intros v0 l0 a0 Hm. eapply Hmem, Hm.
Qed.

Lemma kinv_bg_step c s s' : KInv c s -> bg_step s s' -> Inv s' -> KInv c s'.
Proof. intros [HI HW HQ HNI] (Hm & _ & Ht & _)%bg_fields HI'. constructor; auto; rewrite ?Hm, ?Ht; auto. Qed.

Lemma kinv_flush c s b : bug_rr c = false -> KInv c s -> KInv c (do_flush c s b).
Proof. intros Hrr HK. eapply kinv_bg_step; [exact HK|apply bg_flush|apply inv_flush; [auto|apply HK]]. Qed.

Lemma kinv_complete c s : KInv c s -> KInv c (do_complete s).
Proof. intros HK. eapply kinv_bg_step; [exact HK|apply bg_complete|apply inv_complete, HK]. Qed.

Lemma kinv_reclaim c s b : KInv c s -> KInv c (do_reclaim c s b).
Proof. intros HK. eapply kinv_bg_step; [exact HK|apply bg_reclaim|apply inv_reclaim, HK]. Qed.

Lemma kinv_load_start c s i : KInv c s -> KInv c (do_load_start s i).
Proof.
  intros [HI HW HQ HNI]. pose proof (inv_load_start s i HI) as HI'. unfold do_load_start in *.
  destruct (kmem s) eqn:Hm; [destruct p as [[? ?] ?]|]; constructor; cbn; rewrite ?Hm; auto.
Qed.

Lemma kinv_load_finish c s i a : KInv c s -> KInv c (do_load_finish s i a).
Proof.
  intros [HI HW HQ HNI]. pose proof (inv_load_finish s i a HI) as HI'. unfold do_load_finish in *.
  destruct (find_load i (kload s)) as [[[v|] fromk]|] eqn:Hf; try (constructor; now auto).
  destruct (kmem s) eqn:Hm; [constructor; cbn; rewrite ?Hm; now auto|].
  destruct (iP s HI _ _ _ (find_load_in _ _ _ _ Hf)) as [[tsq Ht] _].
  destruct (fromk && memN v (kondisk s)); constructor; cbn; rewrite ?Hm; auto.
  - intros _ vm l0 a0 [= <- _ _] v0 tsq0 Ht0. congruence.
  - now intros v0 l0 a0 [= _ <- _].
Qed.

Lemma kinv_drain c b fuel s : bug_rr c = false -> KInv c s -> KInv c (drain c fuel b s).
Proof. intros Hrr. apply drain_ind; auto using kinv_flush, kinv_complete. Qed.

Lemma kinv_close c s b : bug_rr c = false -> KInv c s -> KInv c (do_close c s b).
Proof. intros Hrr HK. apply kinv_drain; [exact Hrr|]. destruct (foc c && negb (woi c)); auto using kinv_evict. Qed.

Definition best_of (s1 : kst) (vis : list (N * N * N)) : option ient :=
  best_tomb (ktlog s1) (best_copy (visible vis (kdisk s1)) None).

(* what a restart needs: memory was written out, and recovery's winner is the latest submission (a latest delete may
   also leave nothing at all: without the tombstone log nothing remembers it, and then no copy may be left either) *)
Definition restart_ok (c : hcfg) (s : kst) (b : N) (vis : list (N * N * N)) : Prop :=
  let s1 := do_close c s b in
  (forall vm l a, kmem s1 = Some (vm, l, a) -> exists tsq, ktop s1 = Some (Some vm, tsq)) /\
  match ktop s1 with
  | Some (Some v, tsq) => exists b', best_of s1 vis = Some (IAddr tsq v b') /\ In (v, tsq, b') (kdisk s1)
  | Some (None, tsq) => best_of s1 vis = Some (ITomb tsq) \/ (best_of s1 vis = None /\ kdisk s1 = [])
  | None => best_of s1 vis = None
  end.

(* Recovery leaves a quiescent state whose only claims are copies on the device; under [restart_ok]'s conditions the
   latest submission is still the latest, so the clauses that are not vacuous follow from those of [s1]. *)
Lemma kinv_restart c s b vis :
  bug_rr c = false -> KInv c s -> restart_ok c s b vis -> KInv c (do_recover c (do_close c s b) vis).
Proof.
  intros Hrr HK [Hmem Hbest]. apply (kinv_close c s b Hrr) in HK.
  assert (Hpipe : pipe (do_close c s b) = []) by apply drain_all_empty.
  revert HK Hpipe Hmem Hbest. generalize (do_close c s b). clear s b. intros s1 [HI HW HQ HNI] Hpipe Hmem Hbest.
  unfold do_recover. fold (best_of s1 vis).
  assert (Hdc : forall y, In y (map disk_claim (kdisk s1)) -> In y (claims s1)).
  { intros y [[[v sq] b] [<- Hd]]%in_map_iff. eapply in_claims_disk, Hd. }
  assert (Hnil : claims s1 = [] -> kdisk s1 = []).
  { unfold claims. intros [_ [_ H]%app_eq_nil]%app_eq_nil. now destruct (kdisk s1). }
  destruct (ktop s1) as [[[v|] tsq]|] eqn:Ht.
  - destruct Hbest as (b' & -> & Hin). destruct (iA2 s1 HI _ _ Ht) as [_ Hlo].
    assert (Hcl : forall y, In y ((Some v, tsq) :: map disk_claim (kdisk s1)) -> In y (claims s1)).
    { intros y [<-|Hy]; [eapply in_claims_disk, Hin|auto]. }
    constructor; [constructor|..]; unfold claims, pipe; sproj; cbn [app map idx_claims iseq]; try (intros; discriminate); try (intros; contradiction).
    + (* A1 *) intros cn sq Hc%Hcl. destruct (iB1 s1 HI _ _ Ht _ _ Hc). lia.
    + (* A2 *) intros tc tsq0 [= <- <-]. split; [lia|auto].
    + (* A3 *) intros v0 sq Hc%Hcl. exact (iA3 s1 HI _ _ Hc).
    + (* A4 *) exact (iA4 s1 HI).
    + (* B1 *) intros tc tsq0 [= <- <-] cn sq Hc%Hcl. exact (iB1 s1 HI _ _ Ht _ _ Hc).
    + (* B2 *) intros v0 tsq0 [= <- <-] v' sq Hc%Hcl. exact (iB2 s1 HI _ _ Ht _ _ Hc).
    + (* E *) intros v0 tsq0 _ [= <- <-]. destruct (kmem s1) as [[[vm l] a]|] eqn:Hm; [|exact (iE s1 HI _ _ Hm Ht)].
      destruct (Hmem _ _ _ eq_refl) as [t2 [= <- <-]]. exact (iD s1 HI _ _ _ Hm).
    + (* F *) intros v0 tsq0 _ _. right. eexists; split; [reflexivity|exact Hlo].
    + (* J4 *) constructor.
    + (* O *) exact (iO s1 HI).
    + (* kQ *) exact HQ.
  - destruct (iA2 s1 HI _ _ Ht) as [_ Hlo].
    destruct Hbest as [->|[-> Hd0]]; (constructor; [constructor|..]); unfold claims, pipe; sproj; rewrite ?Hd0;
      cbn [app map idx_claims iseq]; try (intros; discriminate); try (intros; contradiction); try apply HI; try apply SSorted_nil; try easy.
    + (* A1 *) intros cn sq Hc%Hdc. destruct (iB1 s1 HI _ _ Ht _ _ Hc). lia.
    + (* A2 *) intros tc tsq0 [= <- <-]. split; [lia|auto].
    + (* A3 *) intros v0 sq Hc%Hdc. exact (iA3 s1 HI _ _ Hc).
    + (* B1 *) intros tc tsq0 [= <- <-] cn sq Hc%Hdc. exact (iB1 s1 HI _ _ Ht _ _ Hc).
  - rewrite Hbest, (Hnil (iB0 s1 HI Ht)).
    constructor; [constructor|..]; unfold claims, pipe; sproj; cbn [app map idx_claims iseq]; try (intros; discriminate); try (intros; contradiction); try apply HI; try apply SSorted_nil; try easy.
Qed.

(* side conditions on a history:
   - no in-memory-only advice (C01 excludes keys whose advice alternates; C12 treats that advice),
   - no remove while a disk lookup of the key is in flight (defect F14, see [f14_refuted]),
   - a restart happens only when recovery's winner is the latest submission ([restart_ok]). *)
Definition ok_act (c : hcfg) (s : kst) (a : act) : Prop :=
  match a with
  | KIns l => l <> LInMem
  | KRm => kload s = []
  | KRestart b vis => restart_ok c s b vis
  | _ => True
  end.

Fixpoint run_ok (c : hcfg) (s : kst) (l : list act) : Prop :=
  match l with
  | [] => True
  | a :: l' => ok_act c s a /\ run_ok c (kstep c s a) l'
  end.

Lemma kinv_step c s a : bug_rr c = false -> KInv c s -> ok_act c s a -> KInv c (kstep c s a).
Proof.
  intros Hrr HK Hok. destruct a; cbn [kstep] in *.
  - apply kinv_insert; auto.
  - apply kinv_evict; auto.
  - apply kinv_remove; auto.
  - apply kinv_flush; auto.
  - apply kinv_complete; auto.
  - unfold do_reins_delay. rewrite Hrr. exact HK.
  - apply kinv_reclaim; auto.
  - apply kinv_load_start; auto.
  - apply kinv_load_finish; auto.
  - apply kinv_drain; auto.
  - now apply kinv_restart.
Qed.

Lemma run_ok_ind c (P : kst -> Prop) :
  (forall s a, P s -> ok_act c s a -> P (kstep c s a)) -> forall l s, P s -> run_ok c s l -> P (krun c s l).
Proof. intros H. induction l as [|a l IH]; cbn; auto. intros s HP [Ha Hl]. apply IH; auto. Qed.

Lemma kinv_run c l s : bug_rr c = false -> KInv c s -> run_ok c s l -> KInv c (krun c s l).
Proof. intros Hrr. apply run_ok_ind. intros; now apply kinv_step. Qed.

(* F15: with reinsertions spread over the flushers a removed value comes back
   ([mkCfg]: woi accepts reins tomb foc bug_rr) *)
Definition f15_cfg := mkCfg true true true false true true.
Definition f15_hist := [KIns LDefault; KFlush 0; KComplete; KEvict; KReclaim 0; KRm; KReinsDelay;
                        KFlush 1; KComplete; KFlush 1; KComplete; KLoadStart 7; KLoadFinish 7 Young].
Lemma f15_hist_ok : run_ok f15_cfg init_k f15_hist.
Proof. vm_compute. repeat split. discriminate. Qed.
Lemma f15_refuted : In (7, Some 1, None) (kout (krun f15_cfg init_k f15_hist)).
Proof. vm_compute. auto. Qed.

(* F14: a remove while a disk lookup of the key is in flight is undone by that lookup *)
Definition f14_cfg := mkCfg true true false false true false.
Definition f14_hist := [KIns LDefault; KFlush 0; KComplete; KEvict; KLoadStart 7; KRm; KLoadFinish 7 Young; KLoadStart 8].
Lemma f14_refuted : In (8, Some 1, None) (kout (krun f14_cfg init_k f14_hist)).
Proof. vm_compute. auto 6. Qed.
Lemma f14_hist_not_ok : ~ run_ok f14_cfg init_k f14_hist.
Proof. intros H. vm_compute in H. destruct H as [_ [_ [_ [_ [_ [H _]]]]]]. discriminate H. Qed.

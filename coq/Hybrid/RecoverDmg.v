(* Recovery over a damaged tombstone log (C03).  Tombstone pages carry no checksum: a slot is 16 bytes (hash, sequence),
   and whatever bytes the log device holds parse to SOME list of tombstones - with arbitrary sequences.  [do_recover_dmg]
   is [do_recover] with the recovered tombstones of the key's hash replaced by an arbitrary list [tl] (spurious ones
   included, logged ones missing). *)
From Coq Require Import List NArith.
From FV Require Import Hybrid.Engine.
Import ListNotations.
Open Scope N_scope.

Definition do_recover_dmg (c : hcfg) (s : kst) (vis : list (N * N * N)) (tl : list N) : kst :=
  let best := best_tomb tl (best_copy (visible vis (kdisk s)) None) in
  let top := match best with Some (IAddr sq v _) => Some (Some v, sq) | Some (ITomb sq) => Some (None, sq) | None => None end in
  let idx := match best with Some (IAddr sq v b) => best | _ => None end in
  mkK None None [] [] idx (kdisk s) tl
      (match best with Some i => iseq i + 1 | None => 1 end)
      [] (ktruth s) (knext s) top (klo s) true (ksubs s) (kinmem s) (kout s) (kondisk s).

Lemma do_recover_dmg_same c s vis : do_recover_dmg c s vis (ktlog s) = do_recover c s vis.
Proof. reflexivity. Qed.

(* Three more invariants over the [claims] of EngineInv, and what they give for recovery.  [VInv] holds along every history,
   defect flags included; [TInv] and [MInv] only along [run_ok]. *)
From Coq Require Import List NArith Bool Lia.
From FV Require Import Hybrid.Engine Hybrid.EngineInv.
Import ListNotations.
Open Scope N_scope.

Definition sub_vers (x : sub) : list N := match x with SEntry v _ | SReins v _ => [v] | STomb _ => [] end.
Definition idx_vers (i : option ient) : list N := match i with Some (IAddr _ v _) => [v] | _ => [] end.
Definition copy_ver (x : N * N * N) : N := fst (fst x).
Definition load_vers (x : N * option N * bool) : list N := match snd (fst x) with Some v => [v] | None => [] end.
Definition keep_vers (k : option N) : list N := match k with Some v => [v] | None => [] end.

Definition dvers (s : kst) : list N :=
  keep_vers (kkeep s) ++ flat_map sub_vers (pipe s) ++ idx_vers (kidx s) ++ map copy_ver (kdisk s) ++
  flat_map load_vers (kload s).

(* [dvers] is only for C12's statement; the invariant speaks through [held] ([dvers_held]) *)
Definition held (s : kst) (v : N) : Prop :=
  kkeep s = Some v \/ (exists sq, In (Some v, sq) (claims s)) \/ (exists i k, In (i, Some v, k) (kload s)).

(* [vL]: a resident in-memory-only version still carries its advice, so [do_evict] does not submit it *)
Record VInv (s : kst) : Prop := mkVInv {
  vD : forall v, held s v -> In v (ksubs s);
  vM : forall v, In v (kinmem s) -> ~ In v (ksubs s);
  vL : forall v l a, kmem s = Some (v, l, a) -> In v (kinmem s) -> l = LInMem;
  vS : forall v, In v (ksubs s) -> v < knext s;
  vN : forall v, In v (kinmem s) -> v < knext s;
  vR : forall v l a, kmem s = Some (v, l, a) -> v < knext s }.

Lemma vinv_init : VInv init_k.
Proof. constructor; cbn; try easy. intros v [[=]|[[sq []]|(i & k & [])]]. Qed.

Lemma dvers_held s v : In v (dvers s) -> held s v.
Proof.
  unfold dvers. rewrite !in_app_iff, !in_flat_map, in_map_iff.
  intros [H|[(x & Hx & Hv)|[H|[([[v' sq] b] & <- & Hd)|([[i r] k] & Hl & Hv)]]]].
  - left. destruct (kkeep s); [destruct H as [->|[]]; reflexivity|destruct H].
  - right; left. destruct x as [v' sq|sq|v' sq]; cbn in Hv; try easy; destruct Hv as [<-|[]]; exists sq; exact (in_claims_pipe s _ Hx).
  - right; left. destruct (kidx s) as [[sq v' b|sq]|] eqn:Hi; cbn in H; try easy. destruct H as [<-|[]].
    exists sq. exact (in_claims_idx s _ Hi).
  - right; left. exists sq. exact (in_claims_disk s _ _ _ Hd).
  - right; right. destruct r as [v'|]; cbn in Hv; try easy. destruct Hv as [<-|[]]. eauto.
Qed.

Lemma load_held s i v k : In (i, Some v, k) (kload s) -> held s v.
Proof. right; right; eauto. Qed.

(* a step that adds nothing to the disk tier but what a lookup reads from it *)
Lemma vinv_sub s s' :
  VInv s -> incl (claims s') (claims s) -> (forall v, kkeep s' = Some v -> kkeep s = Some v) ->
  ksubs s' = ksubs s -> kinmem s' = kinmem s -> knext s' = knext s ->
  (forall i v k, In (i, Some v, k) (kload s') -> held s v) ->
  (forall v l a, kmem s' = Some (v, l, a) -> kmem s = Some (v, l, a) \/ l = LDefault /\ held s v) ->
  VInv s'.
Proof.
  intros [D M L S Nm R] Hc Hk Hs Hi Hn Hl Hm. constructor; rewrite ?Hs, ?Hi, ?Hn; auto.
  - intros v [|[[sq Hv]|(i & k & H)]]; [apply D; red; eauto..|eauto].
  - intros v l a [|[-> Hv]]%Hm Hin; eauto. now destruct (M v Hin (D v Hv)).
  - intros v l a [|[_ Hv]]%Hm; eauto.
Qed.

Lemma vinv_bg s s' : VInv s -> bg_step s s' -> VInv s'.
Proof.
  intros HV ([= Hmem _ Hload _ Hnext _ _ Hsubs Hinmem _ _] & Hcl & Hk & _ & _). apply (vinv_sub s); auto; rewrite ?Hload, ?Hmem; auto.
  apply load_held.
Qed.

Lemma disk_lookup2_held s v k : disk_lookup2 s = (Some v, k) -> held s v.
Proof.
  intros [[_ Hk]|(_ & _ & sq & b & Hi & _)]%disk_lookup2_some; [now left|].
  right; left. exists sq. exact (in_claims_idx s _ Hi).
Qed.

Lemma vinv_load_start s i : VInv s -> VInv (do_load_start s i).
Proof.
  intros HV. unfold do_load_start.
  destruct (kmem s) as [[[v l] a]|] eqn:Hm; apply (vinv_sub s); try apply incl_refl; sproj; rewrite ?Hm; auto; try discriminate.
  - apply load_held.
  - intros i0 v0 k [Hin|[= _ Hv Hk]]%ListX.In_snoc; [eapply load_held, Hin|].
    apply (disk_lookup2_held s v0 k). now rewrite (surjective_pairing (disk_lookup2 s)), Hv, Hk.
Qed.

Lemma vinv_load_finish s i a : VInv s -> VInv (do_load_finish s i a).
Proof.
  intros HV. unfold do_load_finish.
  destruct (find_load i (kload s)) as [[r fromk]|] eqn:Hf; [|exact HV]. apply find_load_in in Hf.
  assert (Hl : forall i0 v k, In (i0, Some v, k) (del_load i (kload s)) -> held s v).
  { intros i0 v k Hin%del_load_in. eapply load_held, Hin. }
  destruct r as [v|]; [|apply (vinv_sub s); try apply incl_refl; now auto].
  destruct (kmem s) eqn:Hm; [apply (vinv_sub s); try apply incl_refl; sproj; rewrite ?Hm; now auto|].
  destruct (fromk && memN v (kondisk s)); apply (vinv_sub s); try apply incl_refl; sproj; rewrite ?Hm; auto; try discriminate.
  intros v0 l0 a0 [= <- <- _]. right. split; auto. eapply load_held, Hf.
Qed.

Lemma vinv_enq_state s v : VInv s -> ~ In v (kinmem s) -> v < knext s -> VInv (enq_state s v).
Proof.
  intros [D M L S Nm R] Hni Hlt. constructor; auto.
  - intros v1 [Hk|[[sq Hc]|Hl]]; cbn [enq_state ksubs]; rewrite in_app_iff.
    + injection Hk as <-. right; now left.
    + apply claims_enq in Hc as [Hc|[= <- _]]; [left; apply D; red; eauto|right; now left].
    + left. apply D; red; eauto.
  - intros v1 Hin [Hs| ->]%ListX.In_snoc; [eapply M; eauto|auto].
  - intros v1 [Hs| ->]%ListX.In_snoc; auto.
Qed.

Lemma vinv_delete s : VInv s -> VInv (store_delete s).
Proof.
  intros [D M L S Nm R]. constructor; auto.
  intros v1 [Hk|[[sq Hc]|Hl]]; [discriminate| |apply D; red; eauto].
  apply claims_delete in Hc as [Hc|[=]]. apply D; red; eauto.
Qed.

Lemma vinv_enqueue c s v a :
  VInv s -> ~ In v (kinmem s) -> v < knext s -> VInv (store_enqueue c s v a).
Proof.
  intros HV Hni Hlt. rewrite store_enqueue_eq. destruct (accepts c); [|now apply vinv_delete].
  destruct (age_eqb a Young); [|now apply vinv_enq_state].
  destruct HV as [D M L S Nm R]. constructor; auto.
  intros v1 [Hk|H]; [discriminate|]. apply D; red; auto.
Qed.

Lemma vinv_drop_mem s : VInv s -> VInv (set_mem s None).
Proof. intros HV. apply (vinv_sub s); try apply incl_refl; auto; [apply load_held|discriminate]. Qed.

Lemma vinv_evict c s : VInv s -> VInv (do_evict c s).
Proof.
  intros HV. rewrite do_evict_eq. destruct (kmem s) as [[[v l] a]|] eqn:Hm; [|exact HV].
  destruct (negb (woi c) && negb (loc_eqb l LInMem)) eqn:E; [|now apply vinv_drop_mem].
  apply vinv_enqueue; [now apply vinv_drop_mem| |exact (vR s HV _ _ _ Hm)].
  intros Hin. rewrite (vL s HV _ _ _ Hm Hin), andb_false_r in E. discriminate.
Qed.

Lemma vinv_remove s : VInv s -> VInv (do_remove s).
Proof.
  intros HV. apply vinv_delete, (vinv_sub s); try apply incl_refl; auto; [apply load_held|discriminate].
Qed.

Lemma vinv_ins_state s l : VInv s -> VInv (ins_state s l).
Proof.
  intros [D M L S Nm R]. unfold ins_state. constructor; sproj.
  - intros v1 [|[|(i & k & [])]]; apply D; red; auto.
  - intros v1 Hin. destruct l; try (apply M; exact Hin).
    apply ListX.In_snoc in Hin as [Hin| ->]; [auto|]. intros Hs%S. lia.
  - intros v1 l0 a0 E Hin. destruct (loc_eqb l LOnDisk); [discriminate|]. injection E as <- <- _.
    destruct l; auto; exfalso; pose proof (Nm _ Hin); lia.
  - intros v1 Hs%S. lia.
  - intros v1 Hin. destruct l; try (pose proof (Nm _ Hin); lia).
    apply ListX.In_snoc in Hin as [Hin%Nm| ->]; lia.
  - intros v1 l0 a0 E. destruct (loc_eqb l LOnDisk); [discriminate|]. injection E as <- _ _. lia.
Qed.

Lemma vinv_insert c s l : VInv s -> VInv (do_insert c s l).
Proof.
  intros HV. rewrite do_insert_eq. pose proof (vinv_ins_state s l HV) as HV1.
  destruct (insert_enqueues c l) eqn:E; [|exact HV1]. apply vinv_enqueue; cbn; auto; [|lia].
  destruct l; try discriminate; intros Hin; pose proof (vN s HV _ Hin); lia.
Qed.

Definition addr_of (x : N * N * N) : ient := match x with (v, sq, b) => IAddr sq v b end.

(* copies first, then logged tombstones, and ties go to the later element: a logged tombstone beats a copy of equal
   sequence *)
Lemma best_eq tl cs : best_tomb tl (best_copy cs None) = fold_left idx_insert (map addr_of cs ++ map ITomb tl) None.
Proof.
  rewrite fold_left_app. generalize (@None ient) as acc. induction cs as [|[[v sq] b] cs IH]; cbn; auto.
  induction tl as [|x tl IH]; cbn; auto.
Qed.

Lemma fold_insert_spec es : forall acc,
  match fold_left idx_insert es acc with
  | Some e => (acc = Some e \/ In e es) /\ (forall o, acc = Some o -> iseq o <= iseq e) /\ (forall x, In x es -> iseq x <= iseq e)
  | None => acc = None /\ es = []
  end.
Proof.
  induction es as [|x es IH]; intros acc; cbn.
  { destruct acc as [e|]; [|auto]. split; [auto|]. split; [intros o [= <-]; lia|intros x []]. }
  specialize (IH (idx_insert acc x)). destruct (idx_insert_spec acc x) as (e' & He & H1 & H2 & H3).
  destruct (fold_left idx_insert es (idx_insert acc x)) as [e|]; [|destruct IH; congruence].
  destruct IH as (Hin & Hacc & Hes). specialize (Hacc _ He). split; [|split].
  - destruct Hin as [Ha|]; [|auto]. rewrite He in Ha. injection Ha as ->. destruct H3 as [->|]; auto.
  - intros o Ho. specialize (H2 _ Ho). lia.
  - intros y [<-|Hy]; [lia|auto].
Qed.

Lemma best_spec tl cs :
  match best_tomb tl (best_copy cs None) with
  | Some e => ((exists v sq b, e = IAddr sq v b /\ In (v, sq, b) cs) \/ (exists sq, e = ITomb sq /\ In sq tl)) /\
              (forall v sq b, In (v, sq, b) cs -> sq <= iseq e) /\ (forall sq, In sq tl -> sq <= iseq e)
  | None => cs = [] /\ tl = []
  end.
Proof.
  rewrite best_eq. pose proof (fold_insert_spec (map addr_of cs ++ map ITomb tl) None) as H.
  destruct (fold_left idx_insert _ None) as [e|].
  - destruct H as ([[=]|Hw] & _ & Hmax). split; [|split].
    + apply in_app_or in Hw as [([[v sq] b] & <- & Hin)%in_map_iff|(sq & <- & Hin)%in_map_iff]; [left|right]; cbn; eauto 8.
    + intros v sq b Hin. apply (Hmax (IAddr sq v b)), in_or_app. left. exact (in_map addr_of _ _ Hin).
    + intros sq Hin. apply (Hmax (ITomb sq)), in_or_app. right. now apply in_map.
  - destruct H as [_ [H1 H2]%app_eq_nil]. split; eapply map_eq_nil; eauto.
Qed.

Lemma best_of_addr tl vis d sq v b :
  best_tomb tl (best_copy (visible vis d) None) = Some (IAddr sq v b) -> In (v, sq, b) d.
Proof.
  intros H. pose proof (best_spec tl (visible vis d)) as Hs. rewrite H in Hs.
  destruct Hs as ([(v0 & sq0 & b0 & [= <- <- <-] & [Hin _]%filter_In)|(sq0 & [=] & _)] & _). exact Hin.
Qed.

Lemma claims_recover c s vis : incl (claims (do_recover c s vis)) (claims s).
Proof.
  unfold do_recover. apply claims_sub; sproj.
  - intros x [].
  - destruct (best_tomb _ _) as [[sq v b|]|] eqn:Hb; try easy.
    intros y [<-|[]]. eapply in_claims_disk, best_of_addr, Hb.
  - intros [[v sq] b] Hd. eapply in_claims_disk, Hd.
Qed.

Lemma vinv_recover c s vis : VInv s -> VInv (do_recover c s vis).
Proof.
  intros [D M L S Nm R]. constructor; auto; try discriminate.
  intros v [[=]|[[sq Hc%claims_recover]|(i & k & [])]]. apply D; red; eauto.
Qed.

Lemma pull_reins_in q : forall r rest, pull_reins q = Some (r, rest) -> incl (rest ++ [r]) q.
Proof.
  induction q as [|y q IH]; intros r rest H; cbn in H; [discriminate|].
  destruct y; try (destruct (pull_reins q) as [[r' rest']|]; [|discriminate]); injection H as <- <-.
  1, 2: apply incl_cons; [now left|apply incl_tl; auto].
  apply incl_app; [apply incl_tl, incl_refl|now apply incl_cons; [left|]].
Qed.

Lemma vinv_step c s a : VInv s -> VInv (kstep c s a).
Proof.
  intros HV. destruct a; cbn [kstep].
  - now apply vinv_insert.
  - now apply vinv_evict.
  - now apply vinv_remove.
  - exact (vinv_bg s _ HV (bg_flush c s b)).
  - exact (vinv_bg s _ HV (bg_complete s)).
  - unfold do_reins_delay. destruct (bug_rr c); auto. destruct (pull_reins (kq s)) as [[r rest]|] eqn:Hp; auto.
    apply (vinv_sub s); auto; [|exact (load_held s)].
    apply claims_mono; sproj; auto using incl_refl. unfold pipe; sproj.
    eauto using incl_app, incl_appl, incl_appr, incl_refl, pull_reins_in.
  - exact (vinv_bg s _ HV (bg_reclaim c s b)).
  - now apply vinv_load_start.
  - now apply vinv_load_finish.
  - exact (vinv_bg s _ HV (bg_drain c b _ s)).
  - apply vinv_recover. eapply vinv_bg, bg_drain. destruct (foc c && negb (woi c)); auto using vinv_evict.
Qed.

Theorem vinv_run c l s : VInv s -> VInv (krun c s l).
Proof. revert s. apply ListX.fold_left_ind. intros; now apply vinv_step. Qed.

Theorem disk_answers_were_written c l v :
  disk_lookup (krun c init_k l) = Some v -> In v (ksubs (krun c init_k l)).
Proof.
  unfold disk_lookup. destruct (disk_lookup2 _) as [r k] eqn:E. cbn. intros ->.
  exact (vD _ (vinv_run c l init_k vinv_init) _ (disk_lookup2_held _ v k E)).
Qed.

(* C03 / C04: whatever a store answers that has just recovered from the device of [s] - whatever it took for the
   tombstone log, whatever part of the device the scan saw - is a version that was really written for the key *)
Theorem recovered_serves_written s s' v :
  VInv s -> kmem s' = None -> kkeep s' = None -> kdisk s' = kdisk s -> lookup_now s' = Some v -> In v (ksubs s).
Proof.
  intros HV Hm Hk Hd (sq & b & _ & Hin)%served_from_device; auto. rewrite Hd in Hin.
  apply (vD s HV). right; left. exists sq. eapply in_claims_disk, Hin.
Qed.

(* [tB], second half: a logged tombstone with the latest entry's sequence would beat it in recovery *)
Record TInv (s : kst) : Prop := mkTInv {
  tA : forall sq, In sq (ktlog s) -> sq < kseq s;
  tB : forall tc tsq, ktop s = Some (tc, tsq) -> forall sq, In sq (ktlog s) -> sq <= tsq /\ (sq = tsq -> tc = None) }.

Lemma tinv_init : TInv init_k.
Proof. constructor; cbn; intros; try contradiction; discriminate. Qed.

Lemma tinv_frame s s' : TInv s -> ktlog s' = ktlog s -> kseq s' = kseq s -> ktop s' = ktop s -> TInv s'.
Proof. intros [A B] Hl Hs Ht. constructor; rewrite ?Hl, ?Hs, ?Ht; auto. Qed.

Lemma tinv_bump s s' tc : TInv s -> ktlog s' = ktlog s -> kseq s' = kseq s + 1 -> ktop s' = Some (tc, kseq s) -> TInv s'.
Proof.
  intros [A B] Hl Hs Ht. constructor; rewrite ?Hl, ?Hs, ?Ht.
  - intros sq Hin%A. lia.
  - intros tc0 tsq [= <- <-] sq Hin%A. split; lia.
Qed.

Lemma tinv_top s s' tc tsq :
  TInv s -> ktlog s' = ktlog s -> ktop s = Some (tc, tsq) -> ktop s' = Some (tc, tsq) -> kseq s' = tsq + 1 -> TInv s'.
Proof.
  intros [A B] Hl Ht Ht' Hs. constructor; rewrite ?Hl, ?Hs, ?Ht'.
  - intros sq Hin. destruct (B _ _ Ht _ Hin). lia.
  - intros tc0 tsq0 [= <- <-]. exact (B _ _ Ht).
Qed.

Lemma tinv_nolog s : ktlog s = [] -> TInv s.
Proof. intros H. constructor; rewrite H; now intros. Qed.

(* a step on the user's side leaves the log alone, and either the counter and the latest submission too ([tinv_frame]) or
   it submits ([tinv_bump]) *)
Ltac tframe HT := first [exact HT | eapply tinv_frame; [exact HT|reflexivity..] | eapply tinv_bump; [exact HT|reflexivity..]].

Lemma tinv_enqueue c s v a : TInv s -> TInv (store_enqueue c s v a).
Proof. intros HT. rewrite store_enqueue_eq. destruct (accepts c); [destruct (age_eqb a Young)|]; tframe HT. Qed.

(* what the flusher logs is a claimed tombstone: below the counter, and not newer than the latest submission *)
Lemma tinv_bg s s' : Inv s -> TInv s -> bg_step s s' -> TInv s'.
Proof.
  intros HI [A B] ([= _ Hseq _ _ _ Htop _ _ _ _ _] & _ & _ & _ & Hl). constructor; rewrite ?Hseq, ?Htop.
  - intros sq [Hin|Hc]%Hl; [auto|exact (iA1 s HI _ _ Hc)].
  - intros tc tsq Ht0 sq [Hin|Hc]%Hl; [eauto|].
    destruct (top_claim s _ _ _ _ HI Ht0 Hc) as [Hle Hcn]. split; [auto|]. intros ->. symmetry. apply Hcn. lia.
Qed.

Lemma tinv_evict c s : TInv s -> TInv (do_evict c s).
Proof.
  intros HT. rewrite do_evict_eq. destruct (kmem s) as [[[v l] a]|]; auto.
  destruct (_ && _); [apply tinv_enqueue|]; tframe HT.
Qed.

Lemma tinv_close c s b : KInv c s -> TInv s -> TInv (do_close c s b).
Proof.
  intros HK HT. eapply tinv_bg, bg_drain; destruct (foc c && negb (woi c)); eauto using tinv_evict, kinv_evict, kI.
Qed.

Lemma tinv_step c s a : bug_rr c = false -> KInv c s -> ok_act c s a -> TInv s -> TInv (kstep c s a).
Proof.
  intros Hrr HK Hok HT. pose proof HK as [HI _ _ _]. destruct a; cbn [kstep] in *.
  - rewrite do_insert_eq. destruct (insert_enqueues c l); [apply tinv_enqueue|]; tframe HT.
  - now apply tinv_evict.
  - tframe HT.
  - exact (tinv_bg s _ HI HT (bg_flush c s b)).
  - exact (tinv_bg s _ HI HT (bg_complete s)).
  - unfold do_reins_delay. now rewrite Hrr.
  - exact (tinv_bg s _ HI HT (bg_reclaim c s b)).
  - unfold do_load_start. destruct (kmem s) as [[[v l] a]|]; tframe HT.
  - unfold do_load_finish. destruct (find_load i (kload s)) as [[[v|] k]|]; try tframe HT.
    destruct (kmem s); [tframe HT|]. destruct (k && memN v (kondisk s)); tframe HT.
  - exact (tinv_bg s _ HI HT (bg_drain c b _ s)).
  - (* restart: under [restart_ok] recovery's winner is the latest submission, or nothing was logged *)
    destruct Hok as [_ Hb]. pose proof (tinv_close c s b HK HT) as HT1.
    set (s1 := do_close c s b) in *. unfold do_recover. fold (best_of s1 vis).
    pose proof (best_spec (ktlog s1) (visible vis (kdisk s1))) as Hs. fold (best_of s1 vis) in Hs.
    destruct (ktop s1) as [[[v|] tsq]|] eqn:Ht.
    + destruct Hb as (b' & -> & _). now apply (tinv_top s1 _ (Some v) tsq).
    + destruct Hb as [->|[Hb _]]; [now apply (tinv_top s1 _ None tsq)|]. rewrite Hb in *. apply tinv_nolog, Hs.
    + rewrite Hb in *. apply tinv_nolog, Hs.
Qed.

(* [TInv] is kept only together with [KInv] *)
Lemma tinv_run c l s :
  bug_rr c = false -> KInv c s -> TInv s -> run_ok c s l -> KInv c (krun c s l) /\ TInv (krun c s l).
Proof.
  intros Hrr HK HT. apply (run_ok_ind c (fun s' => KInv c s' /\ TInv s')); auto.
  intros s' a [HK' HT'] Ha. split; [now apply kinv_step|now apply tinv_step].
Qed.

Lemma winner_at_least s vis v0 sq0 b0 :
  In (v0, sq0, b0) (visible vis (kdisk s)) -> exists e, best_of s vis = Some e /\ sq0 <= iseq e.
Proof.
  intros Hin. pose proof (best_spec (ktlog s) (visible vis (kdisk s))) as Hs. fold (best_of s vis) in Hs.
  destruct (best_of s vis) as [e|]; [|destruct Hs as [E _]; now rewrite E in Hin].
  exists e. split; [auto|]. destruct Hs as (_ & Hmax & _). eapply Hmax, Hin.
Qed.

(* C04 / C15 (a graceful close is a crash at the quiescent point): the scan need only reach the latest copy, whatever
   else of the device it misses *)
Theorem recovery_serves_latest c s vis v sq b :
  KInv c s -> TInv s -> ktop s = Some (Some v, sq) -> In (v, sq, b) (kdisk s) -> In (v, sq, b) vis ->
  lookup_now (do_recover c s vis) = Some v.
Proof.
  intros [HI _ _ _] [TA TB] Ht Hd Hvis%on_disk_spec.
  pose proof (best_spec (ktlog s) (visible vis (kdisk s))) as Hs.
  assert (Hx : In (v, sq, b) (visible vis (kdisk s))) by (apply filter_In; auto).
  unfold do_recover. destruct (best_tomb _ _) as [e|]; [|destruct Hs as [E _]; now rewrite E in Hx].
  destruct Hs as (Hw & Hmax & _). specialize (Hmax _ _ _ Hx).
  (* the winner has the latest submission's sequence: it is a copy of that version, not a tombstone *)
  destruct Hw as [(v' & sq' & b' & -> & [Hin _]%filter_In)|(sq' & -> & Hin)]; cbn in Hmax.
  - destruct (top_claim s _ _ _ _ HI Ht (in_claims_disk s _ _ _ Hin)) as [Hle Hv]. injection (Hv Hmax) as ->.
    replace sq' with sq in * by lia. now apply (lookup_now_hit _ v sq b').
  - destruct (TB _ _ Ht _ Hin) as [Hle Hn]. discriminate Hn. lia.
Qed.

Theorem recovery_honours_logged_delete c s vis sq :
  KInv c s -> ktop s = Some (None, sq) -> In sq (ktlog s) ->
  lookup_now (do_recover c s vis) = None.
Proof.
  intros [HI _ _ _] Ht Hl. unfold do_recover.
  pose proof (best_spec (ktlog s) (visible vis (kdisk s))) as Hs.
  destruct (best_tomb _ _) as [[sq' v' b'|sq']|]; try reflexivity. exfalso.
  destruct Hs as ([(v0 & sq0 & b0 & [= <- <- <-] & [Hin _]%filter_In)|(? & [=] & _)] & _ & Hmax).
  specialize (Hmax _ Hl). cbn in Hmax.
  destruct (top_claim s _ _ _ _ HI Ht (in_claims_disk s _ _ _ Hin)) as [Hle Hv]. discriminate (Hv Hmax).
Qed.

(* why recovery's "highest sequence wins" never prefers an older version (C04) *)
Definition MInv (s : kst) : Prop :=
  forall v1 s1 v2 s2, In (Some v1, s1) (claims s) -> In (Some v2, s2) (claims s) -> s1 <= s2 -> v1 <= v2.

Lemma minv_sub s s' : MInv s -> incl (claims s') (claims s) -> MInv s'.
Proof. intros HM Hs v1 s1 v2 s2 H1 H2. apply HM; auto. Qed.

Lemma minv_enqueue c s v a :
  MInv s -> (forall cn sq, In (cn, sq) (claims s) -> sq < kseq s) -> (forall v' sq, In (Some v', sq) (claims s) -> v' <= v) ->
  MInv (store_enqueue c s v a).
Proof.
  intros HM A1 Hle. rewrite store_enqueue_eq. destruct (accepts c); [destruct (age_eqb a Young); [exact HM|]|].
  - intros v1 s1 v2 s2 [C1|[= -> ->]]%claims_enq [C2|[= -> ->]]%claims_enq Hlt.
    + eauto.
    + eauto.
    + specialize (A1 _ _ C2). lia.
    + lia.
  - intros v1 s1 v2 s2 [C1|[=]]%claims_delete [C2|[=]]%claims_delete. eauto.
Qed.

Lemma resident_not_older s v l a :
  Inv s -> kmem s = Some (v, l, a) -> forall v' sq, In (Some v', sq) (claims s) -> v' <= v.
Proof.
  intros HI Hm v' sq Hin. destruct (iL s HI _ _ _ Hm) as [[tsq Ht]|Hn]; [|specialize (Hn _ _ Hin); lia].
  destruct (N.le_gt_cases (klo s) sq) as [Hle|Hgt].
  - destruct (iB1 s HI _ _ Ht _ _ Hin) as [_ Hc]. injection (Hc Hle) as ->. lia.
  - pose proof (iB2 s HI _ _ Ht _ _ Hin Hgt). lia.
Qed.

Lemma minv_evict c s : Inv s -> MInv s -> MInv (do_evict c s).
Proof.
  intros HI HM. rewrite do_evict_eq. destruct (kmem s) as [[[v l] a]|] eqn:Hm; auto.
  destruct (_ && _); [|exact HM].
  apply minv_enqueue; [exact HM|exact (iA1 s HI)|exact (resident_not_older s v l a HI Hm)].
Qed.

Lemma minv_step c s a : bug_rr c = false -> KInv c s -> MInv s -> MInv (kstep c s a).
Proof.
  intros Hrr HK HM. pose proof HK as [HI _ _ _]. destruct a; cbn [kstep].
  - rewrite do_insert_eq. destruct (insert_enqueues c l); [|exact HM].
    apply minv_enqueue; [exact HM|exact (iA1 s HI)|]. intros v' sq Hin%(iA3 s HI). lia.
  - now apply minv_evict.
  - intros v1 s1 v2 s2 [C1|[=]]%claims_delete [C2|[=]]%claims_delete. now apply HM.
  - apply (minv_sub s), bg_flush. exact HM.
  - apply (minv_sub s), bg_complete. exact HM.
  - unfold do_reins_delay. now rewrite Hrr.
  - apply (minv_sub s), bg_reclaim. exact HM.
  - unfold do_load_start. now destruct (kmem s) as [[[v l] a]|].
  - unfold do_load_finish. destruct (find_load i (kload s)) as [[[v|] k]|]; auto.
    destruct (kmem s); auto. now destruct (k && memN v (kondisk s)).
  - apply (minv_sub s), bg_drain. exact HM.
  - eapply minv_sub, claims_recover. eapply minv_sub, bg_drain.
    destruct (foc c && negb (woi c)); auto using minv_evict.
Qed.

Lemma minv_run c l s : bug_rr c = false -> KInv c s -> MInv s -> run_ok c s l -> MInv (krun c s l).
Proof.
  intros Hrr HK HM Hok. apply (run_ok_ind c (fun s' => KInv c s' /\ MInv s')); auto.
  intros s' a [HK' HM'] Ha. split; [now apply kinv_step|now apply minv_step].
Qed.

(* C04: a copy the scan sees - in particular an acknowledged write - is never beaten by an older version *)
Theorem recovery_never_older c s vis v0 sq0 b0 v :
  MInv s -> In (v0, sq0, b0) (visible vis (kdisk s)) -> lookup_now (do_recover c s vis) = Some v -> v0 <= v.
Proof.
  intros HM Hin (sq & b & Hi & Hd)%served_from_device; auto.
  destruct (winner_at_least s vis _ _ _ Hin) as (e & He & Hle). apply filter_In in Hin as [Hin _].
  cbn in Hi, Hd. fold (best_of s vis) in Hi. rewrite He in Hi. destruct e; [|discriminate]. injection Hi as -> -> ->.
  eapply HM; eauto using in_claims_disk.
Qed.

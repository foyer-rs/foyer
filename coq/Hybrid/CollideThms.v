(* C17, disk tier (Hybrid/Collide.v): [COwn] along [c_run]. *)
From Coq Require Import List NArith Lia.
From FV Require Import Base.ListX Hybrid.Collide.
Import ListNotations.
Open Scope N_scope.

Lemma kfind_in k l v : kfind k l = Some v -> In (k, v) l.
Proof.
  induction l as [|[k' v'] l IH]; cbn [kfind In]; [discriminate|].
  destruct (N.eqb_spec k k') as [->|_]; [intros [= ->]|]; auto.
Qed.

Lemma kdel_in k l x : In x (kdel k l) -> In x l.
Proof.
  induction l as [|[k' v'] l IH]; cbn [kdel]; [auto|].
  destruct (k =? k'); cbn [In]; intuition.
Qed.

Lemma cidx_insert_inv cur i j : cidx_insert cur i = Some j -> j = i \/ cur = Some j.
Proof.
  destruct cur as [o|]; cbn [cidx_insert]; [destruct (cseq_of o <=? cseq_of i)|]; intros [= <-]; auto.
Qed.

Lemma cidx_remove_inv cur sq j : cidx_remove cur sq = Some j -> cur = Some j.
Proof.
  destruct cur as [o|]; cbn [cidx_remove]; [destruct (cseq_of o <=? sq)|]; congruence.
Qed.

Lemma cidx_reclaim_inv sqs : forall cur j, fold_left cidx_remove sqs cur = Some j -> cur = Some j.
Proof.
  induction sqs as [|sq sqs IH]; cbn [fold_left]; intros cur j H; [exact H|].
  eapply cidx_remove_inv, IH, H.
Qed.

Lemma c_best_inv d : forall acc sq k v,
  c_best d acc = Some (CAddr sq k v) -> acc = Some (CAddr sq k v) \/ In (k, v, sq) d.
Proof.
  induction d as [|[[k' v'] sq'] d IH]; cbn [c_best In]; intros acc sq k v H; [auto|].
  destruct (IH _ _ _ _ H) as [H'|Hin]; [|auto].
  destruct (cidx_insert_inv _ _ _ H') as [[= -> -> ->]|E]; auto.
Qed.

Lemma c_load_result_sound c s k v :
  bug_keeper c = false -> bug_nocheck c = false -> c_load_result c s k = Some v ->
  In (k, v) (ckeep s) \/ exists sq, cidx s = Some (CAddr sq k v).
Proof.
  unfold c_load_result. intros -> ->. destruct (kfind k (ckeep s)) as [vk|] eqn:Ek.
  - intros [= ->]. left. apply kfind_in, Ek.
  - destruct (cidx s) as [[sq k' v'|sq]|]; try discriminate.
    destruct (existsb _ (cdisk s)); [|discriminate].
    destruct (N.eqb_spec k' k) as [->|_]; [|discriminate].
    intros [= ->]. eauto.
Qed.

(* parametric in P, so that the per-operation lemmas say which pairs a step can introduce without mentioning ownership *)
Record CAll (P : N -> N -> Prop) (s : cst) : Prop := {
  ca_keep : forall k v, In (k, v) (ckeep s) -> P k v;
  ca_q : forall k v sq, In (CEntry k v sq) (cq s) -> P k v;
  ca_idx : forall sq k v, cidx s = Some (CAddr sq k v) -> P k v;
  ca_disk : forall k v sq, In (k, v, sq) (cdisk s) -> P k v;
  ca_out : forall k v, In (k, Some v) (cout s) -> P k v }.

Lemma CAll_mono (P Q : N -> N -> Prop) s : (forall k v, P k v -> Q k v) -> CAll P s -> CAll Q s.
Proof. intros HPQ [Hk Hq Hi Hd Ho]. constructor; eauto. Qed.

Lemma CAll_enq P s k : CAll P s -> P k (cnextv s) -> CAll P (c_enq s k).
Proof.
  intros [Hk Hq Hi Hd Ho] Hnew. unfold c_enq. constructor; cbn [ckeep cq cidx cdisk cout]; eauto.
  - intros k0 v0 [[= <- <-]|Hin]; eauto using kdel_in.
  - intros k0 v0 sq Hin. apply In_snoc in Hin as [Hin|[= -> -> ->]]; eauto.
Qed.

Lemma CAll_del P s k : CAll P s -> CAll P (c_del s k).
Proof.
  intros [Hk Hq Hi Hd Ho]. unfold c_del. constructor; cbn [ckeep cq cidx cdisk cout]; eauto using kdel_in.
  - intros k0 v0 sq Hin. apply In_snoc in Hin as [Hin|[=]]; eauto.
  - intros sq k0 v0 E. destruct (cidx_insert_inv _ _ _ E) as [[=]|E']; eauto.
Qed.

Lemma CAll_flush P s : CAll P s -> CAll P (c_flush s).
Proof.
  intros H. unfold c_flush. destruct (cq s) as [|x q] eqn:Eq; [exact H|].
  destruct H as [Hk Hq Hi Hd Ho]. rewrite Eq in Hq.
  assert (Hq' : forall k v sq, In (CEntry k v sq) q -> P k v) by (intros k v sq Hin; eapply Hq; right; exact Hin).
  destruct x as [k v sq|sq].
  - assert (Hkv : P k v) by (eapply Hq; left; reflexivity).
    constructor; cbn [ckeep cq cidx cdisk cout]; eauto.
    + intros k0 v0 Hin. apply Hk.
      destruct (kfind k (ckeep s)) as [v'|]; [destruct (v' =? v)|]; eauto using kdel_in.
    + intros sq0 k0 v0 E. destruct (cidx_insert_inv _ _ _ E) as [[= -> -> ->]|E']; eauto.
    + intros k0 v0 sq0 Hin. apply In_snoc in Hin as [Hin|[= -> -> ->]]; eauto.
  - constructor; cbn [ckeep cq cidx cdisk cout]; eauto using cidx_remove_inv.
Qed.

Lemma CAll_load P c s k : bug_keeper c = false -> bug_nocheck c = false -> CAll P s -> CAll P (c_load c s k).
Proof.
  intros Hb1 Hb2 [Hk Hq Hi Hd Ho]. constructor; cbn [c_load ckeep cq cidx cdisk cout]; eauto.
  intros k0 v0 Hin. apply In_snoc in Hin as [Hin|[= -> E]]; [eauto|].
  destruct (c_load_result_sound c s k v0 Hb1 Hb2 (eq_sym E)) as [Hin|[sq Ei]]; eauto.
Qed.

Lemma CAll_reclaim P s sqs : CAll P s -> CAll P (c_reclaim s sqs).
Proof.
  intros [Hk Hq Hi Hd Ho]. constructor; cbn [c_reclaim ckeep cq cidx cdisk cout]; eauto.
  - intros sq k v E. eauto using cidx_reclaim_inv.
  - intros k v sq Hin. apply filter_In in Hin. destruct Hin as [Hin _]. eauto.
Qed.

Lemma CAll_recover P s : CAll P s -> CAll P (c_recover s).
Proof.
  intros [Hk Hq Hi Hd Ho]. unfold c_recover. constructor; cbn [ckeep cq cidx cdisk cout In]; eauto; try contradiction.
  intros sq k v E. destruct (c_best_inv _ _ _ _ _ E) as [[=]|Hin]; eauto.
Qed.

Lemma CAll_step P c s a :
  bug_keeper c = false -> bug_nocheck c = false -> CAll P s ->
  (forall k, a = AEnq k -> P k (cnextv s)) -> CAll P (c_step c s a).
Proof.
  intros Hb1 Hb2 H Hnew. destruct a; cbn [c_step];
    [apply CAll_enq|apply CAll_del|apply CAll_flush|apply CAll_load|apply CAll_reclaim|apply CAll_recover]; auto.
Qed.

(* the bound on v is what makes the ownership of old pairs survive an enqueue: the new head of cown carries version
   cnextv s, which no mentioned pair has *)
Definition COwn (s : cst) : Prop := CAll (fun k v => owner v (cown s) = Some k /\ v < cnextv s) s.

Lemma COwn_init : COwn init_c.
Proof. constructor; cbn; intros; try contradiction; discriminate. Qed.

Lemma c_step_cown c s a :
  cown (c_step c s a) = match a with AEnq k => (cnextv s, k) :: cown s | _ => cown s end /\
  cnextv (c_step c s a) = match a with AEnq _ => cnextv s + 1 | _ => cnextv s end.
Proof.
  destruct a; cbn [c_step]; try (split; reflexivity).
  unfold c_flush. destruct (cq s) as [|[|] q]; split; reflexivity.
Qed.

Lemma COwn_step c s a : bug_keeper c = false -> bug_nocheck c = false -> COwn s -> COwn (c_step c s a).
Proof.
  intros Hb1 Hb2 H. unfold COwn. destruct (c_step_cown c s a) as [-> ->]. apply CAll_step; auto.
  - destruct a as [k| | | | | ]; try exact H.
    eapply CAll_mono; [|exact H]. cbn beta. intros k0 v [Ho Hv]. cbn [owner].
    destruct (N.eqb_spec v (cnextv s)); [lia|]. split; [exact Ho|lia].
  - intros k ->. cbn [owner]. rewrite N.eqb_refl. split; [reflexivity|lia].
Qed.

Lemma COwn_run c l : forall s, bug_keeper c = false -> bug_nocheck c = false -> COwn s -> COwn (c_run c s l).
Proof. intros s Hb1 Hb2. apply fold_left_ind. intros s' a. now apply COwn_step. Qed.

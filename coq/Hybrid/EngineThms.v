(* Consequences of the one-key hybrid model: when entries are submitted to the disk tier (C12), what a graceful close
   leaves on the device (C15) and a lookup after the restart returns (C01), reinsertion (C09). *)
From Coq Require Import List NArith Bool Lia.
From FV Require Import Hybrid.Engine Hybrid.EngineInv.
Import ListNotations.
Open Scope N_scope.

Lemma subs_enqueue c s v a :
  ksubs (store_enqueue c s v a) = if accepts c && negb (age_eqb a Young) then ksubs s ++ [v] else ksubs s.
Proof. rewrite store_enqueue_eq. now destruct (accepts c), a. Qed.

Lemma mem_enqueue c s v a : kmem (store_enqueue c s v a) = kmem s.
Proof. rewrite store_enqueue_eq. now destruct (accepts c), a. Qed.

Lemma truth_enqueue c s v a : ktruth (store_enqueue c s v a) = ktruth s.
Proof. rewrite store_enqueue_eq. now destruct (accepts c), a. Qed.

Definition insert_submits (c : hcfg) (l : loc) : bool := accepts c && insert_enqueues c l.

Theorem subs_insert c s l :
  ksubs (do_insert c s l) = if insert_submits c l then ksubs s ++ [knext s] else ksubs s.
Proof.
  rewrite do_insert_eq. unfold insert_submits.
  destruct (insert_enqueues c l); rewrite ?subs_enqueue, ?andb_true_r, ?andb_false_r; reflexivity.
Qed.

(* Young: just loaded from a block that is not about to be reclaimed; engine.enqueue skips it *)
Definition evict_submits (c : hcfg) (l : loc) (a : age) : bool :=
  negb (woi c) && negb (loc_eqb l LInMem) && (accepts c && negb (age_eqb a Young)).

Theorem subs_evict c s :
  ksubs (do_evict c s) =
  match kmem s with Some (v, l, a) => if evict_submits c l a then ksubs s ++ [v] else ksubs s | None => ksubs s end.
Proof.
  rewrite do_evict_eq. unfold evict_submits. destruct (kmem s) as [[[v l] a]|]; [|reflexivity].
  destruct (negb (woi c) && negb (loc_eqb l LInMem)); [rewrite subs_enqueue|]; reflexivity.
Qed.

Theorem remove_submits_nothing s : ksubs (do_remove s) = ksubs s.
Proof. reflexivity. Qed.

Lemma subs_close c s b : ksubs (do_close c s b) = ksubs (if foc c && negb (woi c) then do_evict c s else s).
Proof. unfold do_close, drain_all. apply (bg_fields _ _ (bg_drain c b _ _)). Qed.

Lemma truth_evict c s : ktruth (do_evict c s) = ktruth s.
Proof.
  rewrite do_evict_eq. destruct (kmem s) as [[[v l] a]|]; [|reflexivity].
  destruct (_ && _); [rewrite truth_enqueue|]; reflexivity.
Qed.

Lemma truth_close c s b : ktruth (do_close c s b) = ktruth s.
Proof.
  unfold do_close, drain_all. edestruct bg_fields as (_ & -> & _); [apply bg_drain|].
  destruct (foc c && negb (woi c)); [apply truth_evict|reflexivity].
Qed.

Lemma drain_flushes_top c b v sq s :
  bug_rr c = false -> KInv c s -> ktop s = Some (Some v, sq) -> In (SEntry v sq) (kq s) ->
  let s' := drain_all c b s in
  pipe s' = [] /\ kkeep s' = None /\ kidx s' = Some (IAddr sq v b) /\ In (v, sq, b) (kdisk s') /\
  ktop s' = Some (Some v, sq) /\ kmem s' = kmem s.
Proof.
  intros Hrr HK Ht Hq. pose proof (drain_all_empty c b s) as He. cbv zeta.
  (* what every step of the flusher keeps: the entry is still queued, or it is what the index points to (nothing with a
     higher sequence exists to displace it); it is still in the pipeline, or the keeper has let go of it *)
  set (P s' := KInv c s' /\ ktop s' = Some (Some v, sq) /\ kmem s' = kmem s /\
               (In (SEntry v sq) (kq s') \/ kidx s' = Some (IAddr sq v b) /\ In (v, sq, b) (kdisk s')) /\
               (In (SEntry v sq) (pipe s') \/ kkeep s' = None)).
  assert (HP : P (drain_all c b s)).
  { unfold drain_all. apply drain_ind; [| |unfold P, pipe; rewrite in_app_iff; auto 10].
    - (* a flush: the entry itself is written, or what is written does not displace it *)
      intros s1 (HK1 & Ht1 & Hm1 & Hidx & Hkeep). pose proof HK1 as [HI1 _ _ _].
      destruct (bg_fields _ _ (bg_flush c s1 b)) as (Em & _ & Et & _).
      split; [now apply kinv_flush|]. rewrite Em, Et. do 2 (split; [assumption|]).
      pose proof (do_flush_spec c s1 b) as Hf. destruct (pipe_flushed c s1 b _ Hf) as [_ Hp].
      split; [|destruct Hkeep; [left; now apply Hp|right; now destruct Hf]].
      destruct Hf as [H|sq0 q H|v0 sq0 q H|x v0 sq0 q H Hx _]; sproj; rewrite ?H in *; auto.
      + destruct Hidx as [[|]|]; [discriminate|auto..].
      + destruct Hidx as [[|]|]; [discriminate|auto..].
      + assert (Hc : In (Some v0, sq0) (claims s1)).
        { replace (Some v0, sq0) with (sub_claim x) by (destruct Hx; now subst). apply in_claims_pipe.
          unfold pipe. rewrite H. apply in_elt. }
        destruct (top_claim s1 _ _ _ _ HI1 Ht1 Hc) as [Hle Hv].
        destruct Hidx as [[->|]|[Hi Hd]]; [right|now left|right]; rewrite in_app_iff.
        * destruct Hx as [[= <- <-]|[=]]. split; [|right; now left].
          apply idx_insert_newer. intros o Ho%(in_claims_idx s1). destruct o; apply (top_claim s1 _ _ _ _ HI1 Ht1 Ho).
        * split; [|now left]. rewrite Hi. cbn. destruct (N.leb_spec sq sq0) as [Hge|]; [|reflexivity].
          injection (Hv Hge) as ->. now replace sq0 with sq by lia.
    - (* a completion: only the entry's own completion touches the keeper, and no tombstone is newer *)
      intros s1 (HK1 & Ht1 & Hm1 & Hidx & Hkeep). pose proof HK1 as [HI1 _ _ _].
      destruct (bg_fields _ _ (bg_complete s1)) as (Em & _ & Et & _).
      split; [now apply kinv_complete|]. rewrite Em, Et. do 2 (split; [assumption|]).
      unfold do_complete, pipe in *. destruct (ki s1) as [|h i'] eqn:Hki; [rewrite Hki; now split|].
      assert (Hh : In (sub_claim h) (claims s1)) by (apply in_claims_pipe; unfold pipe; rewrite Hki; now left).
      destruct h as [v0 sq0|sq0|v0 sq0]; sproj; (split; [auto|]).
      + destruct Hkeep as [[[= -> ->]|]| ->]; auto. right.
        destruct (kkeep s1) as [vk|] eqn:Hk; [|reflexivity]. destruct (iC s1 HI1 _ Hk) as [t Ht2].
        rewrite Ht1 in Ht2. injection Ht2 as -> _. now rewrite N.eqb_refl.
      + destruct Hidx as [|[Hi Hd]]; [now left|right]. split; [|assumption]. rewrite Hi. cbn.
        destruct (top_claim s1 _ _ _ _ HI1 Ht1 Hh) as [Hle Hv]. destruct (N.leb_spec sq sq0) as [Hge|]; [|reflexivity].
        discriminate (Hv Hge).
      + destruct Hkeep as [[|]|]; [discriminate|auto..].
      + destruct Hkeep as [[|]|]; [discriminate|auto..]. }
  destruct HP as (HK' & Ht' & Hm' & Hidx & Hkeep). unfold pipe in *. apply app_eq_nil in He as [Hi0 Hq0].
  rewrite Hi0, Hq0 in *. destruct Hidx as [[]|[Hi Hd]], Hkeep as [[]|Hk]. auto 10.
Qed.

Theorem close_persists c s b v l a :
  bug_rr c = false -> KInv c s -> foc c = true -> woi c = false -> accepts c = true ->
  kmem s = Some (v, l, a) -> a <> Young ->
  exists sq, pipe (do_close c s b) = [] /\ kkeep (do_close c s b) = None /\ kmem (do_close c s b) = None /\
             kidx (do_close c s b) = Some (IAddr sq v b) /\ In (v, sq, b) (kdisk (do_close c s b)) /\
             ktop (do_close c s b) = Some (Some v, sq).
Proof.
  intros Hrr HK Hf Hw Ha Hm Hy. pose proof (kinv_evict c s HK) as HK'. pose proof (kNI c s HK _ _ _ Hm) as Hl.
  assert (He : do_evict c s = enq_state (set_mem s None) v).
  { rewrite do_evict_eq, Hm, Hw, store_enqueue_eq, Ha. now destruct l, a. }
  unfold do_close. rewrite Hf, Hw, He in *. cbn [negb andb]. exists (kseq s).
  destruct (drain_flushes_top c b v (kseq s) _ Hrr HK' eq_refl) as (H1 & H2 & H3 & H4 & H5 & H6); [|now auto].
  cbn. apply in_or_app. right. now left.
Qed.

Corollary reopen_lookup_fresh c s b vis r :
  bug_rr c = false -> KInv c s -> restart_ok c s b vis ->
  lookup_now (kstep c s (KRestart b vis)) = Some r -> ktruth s = Some r.
Proof.
  intros Hrr HK Hok Hl. rewrite <- (truth_close c s b).
  exact (lookup_now_fresh _ r (kI _ _ (kinv_step c s (KRestart b vis) Hrr HK Hok)) Hl).
Qed.

Lemma drain_all_single c b s x : ki s = [] -> kq s = [x] -> drain_all c b s = do_complete (do_flush c s b).
Proof.
  intros Hi Hq. unfold drain_all. rewrite Hi, Hq. cbn [length Nat.add Nat.mul drain]. rewrite Hi, Hq.
  assert (H : kq (do_flush c s b) = [] /\ (ki (do_flush c s b) = [] \/ ki (do_flush c s b) = [x])).
  { destruct (do_flush_spec c s b) as [H|sq q H|v sq q H|y v sq q H _ _]; rewrite Hq in H; try discriminate;
      injection H as -> <-; sproj; rewrite ?Hi; auto. }
  destruct H as [Hq' [Hi'|Hi']]; rewrite Hi', ?Hq'.
  - unfold do_complete. now rewrite Hi'.
  - cbn [drain]. unfold do_complete at 1 2 4. rewrite Hi'. now destruct x; sproj; rewrite ?Hq'.
Qed.

Theorem reinserted_entry_survives c s v sq b b' pre post :
  bug_rr c = false -> reins c = true ->
  kmem s = None -> kkeep s = None -> kq s = [] -> ki s = [] ->
  kidx s = Some (IAddr sq v b) -> kdisk s = pre ++ (v, sq, b) :: post ->
  (forall x, In x pre -> snd x <> b) -> (forall x, In x post -> snd x <> b) ->
  lookup_now s = Some v /\ lookup_now (drain_all c b' (do_reclaim c s b)) = Some v.
Proof.
  intros Hrr Hre Hm Hk Hq Hi Hidx Hd Hpre Hpost.
  split; [apply (lookup_now_hit s v sq b); auto; rewrite Hd; apply in_elt|].
  (* the states are kept abstract from here on: unfolding a step on a compound state copies it into every branch *)
  remember (do_reclaim c s b) as s1 eqn:E1.
  assert (H1 : kmem s1 = None /\ kkeep s1 = None /\ ki s1 = [] /\ kq s1 = [SReins v sq] /\ kidx s1 = Some (IAddr sq v b)).
  { subst s1. unfold do_reclaim. rewrite reclaim_copies_eq, Hre, Hd. cbv zeta. rewrite !filter_app. cbn [filter snd].
    rewrite N.eqb_refl, (ListX.filter_none _ pre), (ListX.filter_none _ post) by (intros x Hx; apply N.eqb_neq; auto).
    cbn. now rewrite Hq. }
  clear E1. destruct H1 as (Hm1 & Hk1 & Hi1 & Hq1 & Hx1).
  rewrite (drain_all_single c b' s1 _ Hi1 Hq1).
  apply (lookup_now_hit _ v sq b'); unfold do_flush; rewrite Hq1, Hrr, Hx1; cbn [idx_get]; rewrite N.eqb_refl;
    unfold do_complete; sproj; rewrite Hi1; cbn [app]; sproj; auto.
  - cbn. now rewrite N.leb_refl.
  - apply in_or_app. right. now left.
Qed.

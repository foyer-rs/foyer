From Coq Require Import List Arith Lia Sorted.
Import ListNotations.

Lemma nth_snoc_default {A} (l : list A) d i : nth i (l ++ [d]) d = nth i l d.
Proof. revert i. induction l as [|x l IH]; intros [|i]; cbn; auto. destruct i; reflexivity. Qed.

Lemma NoDup_map_inj {A B} (f : A -> B) l x y : NoDup (map f l) -> In x l -> In y l -> f x = f y -> x = y.
Proof.
  induction l as [|z l IH]; cbn [map In]; intros Hnd Hx Hy E; [contradiction|].
  inversion Hnd as [|? ? Hnot Hnd']; subst.
  destruct Hx as [->|Hx], Hy as [->|Hy]; auto; exfalso; apply Hnot; [rewrite E|rewrite <- E]; apply in_map; assumption.
Qed.

Lemma firstn_app_exact {A} (a r : list A) n : length a = n -> firstn n (a ++ r) = a.
Proof. intros <-. rewrite firstn_app, Nat.sub_diag, firstn_all. apply app_nil_r. Qed.

Lemma skipn_app_exact {A} (a r : list A) n : length a = n -> skipn n (a ++ r) = r.
Proof. intros <-. rewrite skipn_app, Nat.sub_diag, skipn_all. reflexivity. Qed.

Lemma skipn_app_more {A} (a r : list A) n m : length a = n -> skipn (n + m) (a ++ r) = skipn m r.
Proof. intros <-. rewrite skipn_app, skipn_all2 by lia. cbn [app]. f_equal. lia. Qed.

Lemma NoDup_map_filter {A B} (f : A -> B) g l : NoDup (map f l) -> NoDup (map f (filter g l)).
Proof.
  induction l as [|x l IH]; simpl; intros H; [constructor|]. inversion H as [|? ? Hn Hd]; subst.
  destruct (g x); simpl; auto. constructor; auto.
  intros Hin. apply Hn. apply in_map_iff in Hin. destruct Hin as [y [<- Hy]]. apply in_map, (proj1 (filter_In _ _ _) Hy).
Qed.

Lemma filter_none {A} (f : A -> bool) l : (forall x, In x l -> f x = false) -> filter f l = [].
Proof. induction l as [|x l IH]; cbn; intros H; [reflexivity|]. rewrite (H x) by now left. auto. Qed.

Lemma NoDup_snoc {A} (l : list A) x : NoDup l -> ~ In x l -> NoDup (l ++ [x]).
Proof.
  intros Hnd Hn. apply NoDup_rev in Hnd. rewrite <- (rev_involutive (l ++ [x])), rev_unit.
  apply NoDup_rev. constructor; [rewrite <- in_rev; assumption|assumption].
Qed.

Lemma In_snoc {A} (l : list A) x y : In y (l ++ [x]) <-> In y l \/ y = x.
Proof. rewrite in_app_iff. simpl. intuition. Qed.

Lemma StronglySorted_snoc {A} (R : A -> A -> Prop) l x :
  StronglySorted R l -> (forall y, In y l -> R y x) -> StronglySorted R (l ++ [x]).
Proof.
  induction 1 as [|y l Hs IH Hall]; intros Hx; cbn [app]; [repeat constructor|].
  constructor; [apply IH; intros z Hz; apply Hx; right; exact Hz|].
  apply Forall_app. split; [exact Hall|]. repeat constructor. apply Hx. left. reflexivity.
Qed.

(* [frun], [brun], [krun], [c_run] are [fold_left]s; the shard's [run] is partial and has [ShardSteps.run_inv] *)
Lemma fold_left_ind {A B} (f : A -> B -> A) (P : A -> Prop) :
  (forall s a, P s -> P (f s a)) -> forall l s, P s -> P (fold_left f l s).
Proof. intros H. induction l as [|a l IH]; cbn; auto. Qed.

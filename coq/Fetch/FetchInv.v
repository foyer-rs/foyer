(* The invariant of M-FETCH (repaired code: bug_close = false) and its preservation.

   Every operation of Fetch.v is a composition of five updates: memory is overwritten ([with_mem]), one
   task changes state ([set_task]), an in-flight entry is edited in place ([upd_infl]), an entry is taken
   and its waiters answered ([settle]), a leader is spawned.  [FInv] is proved once for each; the lemma of
   an operation then only names the updates it is made of (a memory hit records an answered caller and nothing
   else: [FInv_call] checks fi_wait where it stands). *)
From Coq Require Import List NArith Bool Arith Lia.
From FV Require Import Base.ListX Fetch.Fetch.
Import ListNotations.
Open Scope N_scope.

Definition topen (t : task) : bool := match tst t with TDone => false | _ => true end.

Lemma map_if_absent {A} (key : A -> N) f k l :
  ~ In k (map key l) -> map (fun x => if N.eqb k (key x) then f x else x) l = l.
Proof.
  intros Hn. erewrite map_ext_in; [apply map_id|]. intros x Hx. cbv beta.
  destruct (N.eqb_spec k (key x)) as [->|_]; [|reflexivity]. exfalso. apply Hn, in_map, Hx.
Qed.

Lemma find_infl_In k l i : find_infl k l = Some i -> In i l /\ ikey i = k.
Proof.
  induction l as [|x l IH]; simpl; [discriminate|].
  destruct (N.eqb_spec k (ikey x)) as [->|Hne]; intros H.
  - inversion H; subst. auto.
  - destruct (IH H). auto.
Qed.

Lemma find_infl_None k l : find_infl k l = None -> forall i, In i l -> ikey i <> k.
Proof.
  induction l as [|x l IH]; simpl; intros H i Hin; [contradiction|].
  destruct (N.eqb_spec k (ikey x)) as [->|Hne]; [discriminate|].
  destruct Hin as [<-|Hin]; [congruence|]. apply IH; assumption.
Qed.

Lemma find_infl_unique k l i i' :
  NoDup (map ikey l) -> find_infl k l = Some i -> In i' l -> ikey i' = k -> i' = i.
Proof.
  intros Hnd H Hin Hk. destruct (find_infl_In _ _ _ H) as [Hi Hki].
  apply (NoDup_map_inj ikey l); auto. congruence.
Qed.

Lemma del_infl_filter k l : del_infl k l = filter (fun i => negb (N.eqb k (ikey i))) l.
Proof. induction l as [|x l IH]; simpl; [reflexivity|]. rewrite IH. destruct (N.eqb k (ikey x)); reflexivity. Qed.

Lemma del_infl_In k l i : In i (del_infl k l) <-> In i l /\ ikey i <> k.
Proof. rewrite del_infl_filter, filter_In, negb_true_iff, N.eqb_neq. intuition congruence. Qed.

Lemma del_infl_nodup k l : NoDup (map ikey l) -> NoDup (map ikey (del_infl k l)).
Proof. rewrite del_infl_filter. apply NoDup_map_filter. Qed.

Lemma find_infl_del_same k l : find_infl k (del_infl k l) = None.
Proof.
  induction l as [|x l IH]; simpl; [reflexivity|].
  destruct (N.eqb_spec k (ikey x)) as [->|Hne]; [exact IH|]. simpl.
  destruct (N.eqb_spec k (ikey x)); [congruence|exact IH].
Qed.

(* [upd_infl] and [set_task] edit the first match only; with distinct keys that is a [map] *)
Lemma upd_infl_map k f l :
  NoDup (map ikey l) -> upd_infl k f l = map (fun i => if N.eqb k (ikey i) then f i else i) l.
Proof.
  induction l as [|x l IH]; simpl; intros Hnd; [reflexivity|].
  inversion Hnd as [|? ? Hnot Hnd']; subst.
  destruct (N.eqb_spec k (ikey x)) as [->|Hne]; [|rewrite IH by assumption; reflexivity].
  rewrite map_if_absent by assumption. reflexivity.
Qed.

Lemma set_cell_length n l : length (set_cell n l) = length l.
Proof. revert n; induction l as [|b l IH]; intros [|n]; simpl; auto. Qed.

Lemma nth_set_cell_same n l : (n < length l)%nat -> nth n (set_cell n l) false = true.
Proof. revert n; induction l as [|b l IH]; intros [|n] H; simpl in *; try lia; auto. apply IH; lia. Qed.

Lemma nth_set_cell_other n m l : n <> m -> nth m (set_cell n l) false = nth m l false.
Proof. revert n m; induction l as [|b l IH]; intros [|n] [|m] H; simpl; auto; congruence. Qed.

Definition restate (st : tstate) (x : task) : task := mkTask (tkey x) (tid x) (tlead x) (tcell x) st.

Lemma set_task_map t st l :
  NoDup (map tid l) -> set_task t st l = map (fun x => if N.eqb t (tid x) then restate st x else x) l.
Proof.
  induction l as [|y l IH]; simpl; intros Hnd; [reflexivity|].
  inversion Hnd as [|? ? Hnot Hnd']; subst.
  destruct (N.eqb_spec t (tid y)) as [->|Hne]; [|rewrite IH by assumption; reflexivity].
  rewrite map_if_absent by assumption. reflexivity.
Qed.

(* [result_of] on a caller list that is not yet a state's *)
Definition res_of (cs : list (N * res)) (c : N) : option res :=
  (fix go l := match l with [] => None | (c', r) :: l' => if N.eqb c c' then Some r else go l' end) cs.

Lemma result_of_eq s c : result_of s c = res_of (callers s) c.
Proof. reflexivity. Qed.

Lemma res_of_cons c0 r0 cs c :
  res_of ((c0, r0) :: cs) c = if N.eqb c c0 then Some r0 else res_of cs c.
Proof. reflexivity. Qed.

Lemma res_of_set_res c r cs c' :
  res_of (set_res c r cs) c' =
  if N.eqb c' c then match res_of cs c' with Some RPending => Some r | x => x end else res_of cs c'.
Proof.
  induction cs as [|[c0 r0] cs IH].
  - simpl. destruct (N.eqb c' c); reflexivity.
  - cbn [set_res]. destruct (N.eqb c c0) eqn:E1.
    + apply N.eqb_eq in E1. subst c0. rewrite !res_of_cons.
      destruct (N.eqb c' c) eqn:E2; [|reflexivity]. destruct r0; reflexivity.
    + rewrite !res_of_cons. rewrite IH. destruct (N.eqb c' c0) eqn:E2; [|reflexivity].
      apply N.eqb_eq in E2. subst c0. rewrite N.eqb_sym, E1. reflexivity.
Qed.

Lemma res_of_notify ws r : forall cs c,
  res_of (notify ws r cs) c = if existsb (N.eqb c) ws
                              then match res_of cs c with Some RPending => Some r | x => x end
                              else res_of cs c.
Proof.
  unfold notify. induction ws as [|w ws IH]; intros cs c; simpl; [reflexivity|].
  rewrite IH, res_of_set_res.
  destruct (N.eqb_spec c w) as [->|Hne]; simpl; [|reflexivity].
  destruct (existsb (N.eqb w) ws); destruct (res_of cs w) as [[]|]; try reflexivity; destruct r; reflexivity.
Qed.

Lemma existsb_In c ws : existsb (N.eqb c) ws = true <-> In c ws.
Proof.
  rewrite existsb_exists. split.
  - intros [x [Hin He]]. apply N.eqb_eq in He. subst. assumption.
  - intros H. exists c. split; [assumption|apply N.eqb_refl].
Qed.

Lemma res_of_app_new cs c r c' :
  res_of cs c = None -> res_of (cs ++ [(c, r)]) c' = if N.eqb c' c then Some r else res_of cs c'.
Proof.
  induction cs as [|[c0 r0] cs IH]; simpl; intros H.
  - reflexivity.
  - destruct (N.eqb_spec c c0) as [->|Hne]; [discriminate|].
    destruct (N.eqb_spec c' c0) as [->|H']; [destruct (N.eqb_spec c0 c); [congruence|reflexivity]|].
    apply IH. assumption.
Qed.

Lemma known_caller_res s c : known_caller s c = false -> res_of (callers s) c = None.
Proof.
  unfold known_caller. induction (callers s) as [|[c0 r0] cs IH]; simpl; [reflexivity|].
  destruct (N.eqb c c0); simpl; [discriminate|]. exact IH.
Qed.

Lemma mlookup_mremove_other k k' m : k <> k' -> mlookup k (mremove k' m) = mlookup k m.
Proof.
  intros Hne. induction m as [|[k2 v] m IH]; simpl; [reflexivity|].
  destruct (N.eqb_spec k' k2) as [->|H2]; simpl.
  - destruct (N.eqb_spec k k2); [congruence|]. exact IH.
  - destruct (N.eqb k k2); [reflexivity|exact IH].
Qed.

Lemma mlookup_mremove_same k m : mlookup k (mremove k m) = None.
Proof.
  induction m as [|[k2 v] m IH]; simpl; [reflexivity|].
  destruct (N.eqb_spec k k2) as [->|H2]; simpl; [exact IH|].
  destruct (N.eqb_spec k k2); [congruence|exact IH].
Qed.

Lemma mlookup_put_other k k' v m : k <> k' -> mlookup k ((k', v) :: mremove k' m) = mlookup k m.
Proof.
  intros Hne. cbn [mlookup]. destruct (N.eqb_spec k k'); [congruence|]. apply mlookup_mremove_other. assumption.
Qed.

(* fi_lead: the leader shares its entry's close flag (F3: it had one of its own).  fi_reg is the converse; it survives
   because [take] sets the flag exactly when it removes the entry. *)
Record FInv (s : fstate) : Prop := {
  fi_keys : NoDup (map ikey (infls s));
  fi_tids : NoDup (map tid (tasks s));
  fi_mem : forall i, In i (infls s) -> mlookup (ikey i) (mem s) = None;
  fi_lead : forall i, In i (infls s) -> exists t, In t (tasks s) /\ tid t = iid i /\ tkey t = ikey i /\
                      tcell t = icell i /\ topen t = true /\ closed s t = false;
  fi_reg : forall t, In t (tasks s) -> topen t = true -> closed s t = false ->
                     exists i, In i (infls s) /\ iid i = tid t /\ ikey i = tkey t;
  fi_cells : forall t1 t2, In t1 (tasks s) -> In t2 (tasks s) -> tcell t1 = tcell t2 -> tid t1 = tid t2;
  fi_cell_lt : forall t, In t (tasks s) -> (tcell t < length (cells s))%nat;
  fi_ids : forall t, In t (tasks s) -> tid t < next_id s;
  fi_wait : forall c, res_of (callers s) c = Some RPending -> exists i, In i (infls s) /\ In c (iwaiters i) }.

Lemma FInv_init : FInv init_f.
Proof. constructor; simpl; try constructor; intros; try contradiction; discriminate. Qed.

Lemma tid_inj s t t' : FInv s -> In t (tasks s) -> In t' (tasks s) -> tid t = tid t' -> t = t'.
Proof. intros HI. apply NoDup_map_inj, (fi_tids s HI). Qed.

Lemma led_entry s t i :
  FInv s -> In t (tasks s) -> In i (infls s) -> iid i = tid t ->
  find_infl (tkey t) (infls s) = Some i /\ closed s t = false.
Proof.
  intros HI Ht Hi He. destruct (fi_lead s HI i Hi) as (x & Hx & A & B & _ & _ & F).
  assert (x = t) by (apply (tid_inj s); auto; congruence). subst x. split; [|exact F].
  destruct (find_infl (tkey t) (infls s)) as [j|] eqn:E.
  - f_equal. symmetry. eapply find_infl_unique; eauto using fi_keys.
  - exfalso. apply (find_infl_None _ _ E i Hi). auto.
Qed.

(* [started] and [finished] are read by no clause *)
Lemma FInv_ext s s' :
  mem s' = mem s -> infls s' = infls s -> tasks s' = tasks s -> cells s' = cells s -> callers s' = callers s ->
  next_id s' = next_id s -> FInv s -> FInv s'.
Proof.
  intros A B D E F G [Hkeys Htids Hmem Hlead Hreg Hcells Hclt Hids Hwait].
  constructor; unfold closed in *; rewrite ?A, ?B, ?D, ?E, ?F, ?G; auto.
Qed.

Lemma FInv_start_fetch s f : FInv s -> FInv (start_fetch s f).
Proof. apply FInv_ext; reflexivity. Qed.
Lemma FInv_finish_fetch s f : FInv s -> FInv (finish_fetch s f).
Proof. apply FInv_ext; reflexivity. Qed.

Lemma FInv_with_mem s m' :
  FInv s -> (forall i, In i (infls s) -> mlookup (ikey i) m' = None) -> FInv (with_mem s m').
Proof.
  intros [Hkeys Htids Hmem Hlead Hreg Hcells Hclt Hids Hwait] Hm.
  constructor; cbn [mem infls tasks cells callers next_id with_mem]; auto.
Qed.

(* [closed] looks at the flags alone; where the proofs below need this it holds by computation *)
Lemma closed_with_tasks s l t : closed (with_tasks s l) t = closed s t.
Proof. reflexivity. Qed.

(* only fi_lead and fi_reg read [tst]; the other clauses see ids, keys and cells, which [Hg] transports *)
Lemma FInv_set_task s t st :
  FInv s -> In t (tasks s) ->
  (st = TDone -> forall i, In i (infls s) -> iid i <> tid t) ->
  (st <> TDone -> topen t = true) ->
  FInv (with_tasks s (set_task (tid t) st (tasks s))).
Proof.
  intros HI Ht Hdone Hopen. pose proof HI as [Hkeys Htids Hmem Hlead Hreg Hcells Hclt Hids Hwait].
  unfold with_tasks. rewrite set_task_map by assumption.
  set (g := fun x => if N.eqb (tid t) (tid x) then restate st x else x).
  assert (Hg : forall x, In x (tasks s) ->
               tid (g x) = tid x /\ tkey (g x) = tkey x /\ tcell (g x) = tcell x /\ (g x = x \/ x = t /\ g x = restate st t)).
  { intros x Hx. unfold g. destruct (N.eqb_spec (tid t) (tid x)) as [He|_]; [|auto].
    assert (t = x) by (apply (tid_inj s); auto). subst x. repeat split; auto. }
  assert (Hin : forall y, In y (map g (tasks s)) -> exists x, In x (tasks s) /\ y = g x).
  { intros y Hy. apply in_map_iff in Hy. destruct Hy as (x & <- & Hx). eauto. }
  constructor; unfold closed; cbn [mem infls tasks cells callers next_id]; auto.
  - (* fi_tids *) rewrite map_map, (map_ext_in _ tid); [assumption|]. intros x Hx. apply Hg. assumption.
  - (* fi_lead *) intros i Hi. destruct (Hlead i Hi) as (x & Hx & A & B & D & E & F).
    destruct (Hg x Hx) as (P & Q & R & W). exists (g x). rewrite P, Q, R. repeat split; auto using in_map.
    destruct W as [->|[-> ->]]; [assumption|].
    destruct st; try reflexivity. exfalso. apply (Hdone eq_refl i Hi). auto.
  - (* fi_reg *) intros y Hy Hop Hc. destruct (Hin y Hy) as (x & Hx & ->).
    destruct (Hg x Hx) as (-> & -> & R & W). rewrite R in Hc. apply Hreg; [assumption| |exact Hc].
    destruct W as [<-|[-> E]]; [assumption|]. apply Hopen. intros ->. rewrite E in Hop. discriminate.
  - (* fi_cells *) intros a b Ha Hb. destruct (Hin a Ha) as (a' & Ha' & ->), (Hin b Hb) as (b' & Hb' & ->).
    destruct (Hg a' Ha') as (-> & _ & -> & _), (Hg b' Hb') as (-> & _ & -> & _). auto.
  - (* fi_cell_lt *) intros y Hy. destruct (Hin y Hy) as (x & Hx & ->). destruct (Hg x Hx) as (_ & _ & -> & _). auto.
  - (* fi_ids *) intros y Hy. destruct (Hin y Hy) as (x & Hx & ->). destruct (Hg x Hx) as (-> & _). auto.
Qed.

Definition settle (s : fstate) (k : N) (i : infl) (r : res) : fstate :=
  mkF (mem s) (del_infl k (infls s)) (tasks s) (set_cell (icell i) (cells s))
      (notify (iwaiters i) r (callers s)) (started s) (finished s) (next_id s).

Lemma FInv_settle s k i r :
  FInv s -> find_infl k (infls s) = Some i -> r <> RPending -> FInv (settle s k i r).
Proof.
  intros HI Hf Hr. pose proof HI as [Hkeys Htids Hmem Hlead Hreg Hcells Hclt Hids Hwait].
  destruct (find_infl_In _ _ _ Hf) as [Hin Hk].
  destruct (Hlead i Hin) as (tl & Htl & Hid & Hkey & Hcell & Hop & Hcl).
  (* the cell that is set is the cell of [i]'s leader and of no other task *)
  assert (Hown : forall t, In t (tasks s) -> icell i = tcell t -> t = tl).
  { intros t Ht E. apply (tid_inj s); auto. apply Hcells; auto. congruence. }
  constructor; unfold closed; cbn [settle mem infls tasks cells callers next_id]; auto.
  - (* fi_keys *) apply del_infl_nodup; assumption.
  - (* fi_mem *) intros j Hj. apply del_infl_In in Hj. apply Hmem. tauto.
  - (* fi_lead *) intros j Hj. apply del_infl_In in Hj. destruct Hj as [Hj Hjk].
    destruct (Hlead j Hj) as (t & Ht & A & B & D & E & F).
    exists t. repeat split; auto. rewrite nth_set_cell_other; [assumption|].
    intros Heq. rewrite (Hown t Ht Heq) in B. congruence.
  - (* fi_reg *) intros t Ht Hopn Hc. destruct (Nat.eq_dec (icell i) (tcell t)) as [E|Hne].
    { rewrite E, nth_set_cell_same in Hc by auto. discriminate. }
    rewrite nth_set_cell_other in Hc by assumption.
    destruct (Hreg t Ht Hopn Hc) as (j & Hj & A & B).
    exists j. split; [|auto]. apply del_infl_In. split; [assumption|].
    intros Hjk. assert (j = i) by (eapply find_infl_unique; eauto). subst j.
    apply Hne. rewrite <- Hcell. f_equal. apply (tid_inj s); auto. congruence.
  - (* fi_cell_lt *) intros t Ht. rewrite set_cell_length. auto.
  - (* fi_wait: who is still pending was not a waiter of [i] *)
    intros c Hc. rewrite res_of_notify in Hc.
    destruct (existsb (N.eqb c) (iwaiters i)) eqn:Ex.
    + destruct (res_of (callers s) c) as [[]|]; try discriminate; congruence.
    + destruct (Hwait c Hc) as (j & Hj & Hw). exists j. split; [|assumption].
      apply del_infl_In. split; [assumption|]. intros Hjk.
      assert (j = i) by (eapply find_infl_unique; eauto). subst j.
      apply existsb_In in Hw. congruence.
Qed.

Lemma FInv_upd_infl s k f cs' :
  FInv s ->
  (forall i, ikey (f i) = ikey i /\ iid (f i) = iid i /\ icell (f i) = icell i /\
             (forall c, In c (iwaiters i) -> In c (iwaiters (f i)))) ->
  (forall c, res_of cs' c = Some RPending ->
             res_of (callers s) c = Some RPending \/
             exists i, In i (infls s) /\ ikey i = k /\ In c (iwaiters (f i))) ->
  FInv (mkF (mem s) (upd_infl k f (infls s)) (tasks s) (cells s) cs' (started s) (finished s) (next_id s)).
Proof.
  intros [Hkeys Htids Hmem Hlead Hreg Hcells Hclt Hids Hwait] Hf Hc. rewrite upd_infl_map by assumption.
  set (g := fun i => if N.eqb k (ikey i) then f i else i).
  assert (Hg : forall i, ikey (g i) = ikey i /\ iid (g i) = iid i /\ icell (g i) = icell i /\
                         (forall c, In c (iwaiters i) -> In c (iwaiters (g i)))).
  { intros i. unfold g. destruct (N.eqb k (ikey i)); [apply Hf|auto]. }
  constructor; unfold closed; cbn [mem infls tasks cells callers next_id]; auto.
  - (* fi_keys *) rewrite map_map, (map_ext _ ikey); [assumption|]. intros i. apply Hg.
  - (* fi_mem *) intros j Hj. apply in_map_iff in Hj. destruct Hj as (i & <- & Hi). rewrite (proj1 (Hg i)). auto.
  - (* fi_lead *) intros j Hj. apply in_map_iff in Hj. destruct Hj as (i & <- & Hi).
    destruct (Hg i) as (-> & -> & -> & _). apply Hlead. assumption.
  - (* fi_reg *) intros t Ht Ho Hcl. destruct (Hreg t Ht Ho Hcl) as (i & Hi & A & B).
    exists (g i). destruct (Hg i) as (-> & -> & _). auto using in_map.
  - (* fi_wait *) intros c Hp. destruct (Hc c Hp) as [Hold|(i & Hi & Hk & Hw)].
    + destruct (Hwait c Hold) as (i & Hi & Hw). exists (g i). split; [apply in_map; assumption|apply Hg; assumption].
    + exists (g i). split; [apply in_map; assumption|]. unfold g. rewrite Hk, N.eqb_refl. assumption.
Qed.

Lemma FInv_spawn s c k st :
  FInv s -> res_of (callers s) c = None -> mlookup k (mem s) = None -> find_infl k (infls s) = None ->
  st <> TDone ->
  FInv (mkF (mem s) (infls s ++ [mkInfl k (next_id s) (length (cells s)) [c] None])
            (tasks s ++ [mkTask k (next_id s) c (length (cells s)) st])
            (cells s ++ [false]) (callers s ++ [(c, RPending)]) (started s) (finished s) (next_id s + 1)).
Proof.
  intros [Hkeys Htids Hmem Hlead Hreg Hcells Hclt Hids Hwait] Hres Em Ef Hst.
  set (i := mkInfl k (next_id s) (length (cells s)) [c] None).
  set (t := mkTask k (next_id s) c (length (cells s)) st).
  assert (Hcl : forall x, In x (tasks s) -> nth (tcell x) (cells s ++ [false]) false = closed s x).
  { intros x Hx. apply app_nth1. auto. }
  constructor; unfold closed; cbn [mem infls tasks cells callers next_id].
  - (* fi_keys *) rewrite map_app. apply NoDup_snoc; [assumption|].
    intros Hin. apply in_map_iff in Hin. destruct Hin as [j [Hk Hj]]. exact (find_infl_None _ _ Ef j Hj Hk).
  - (* fi_tids *) rewrite map_app. apply NoDup_snoc; [assumption|].
    intros Hin. apply in_map_iff in Hin. destruct Hin as [x [Hx Hin]].
    pose proof (Hids x Hin). cbn in Hx. lia.
  - (* fi_mem *) intros j Hj. apply In_snoc in Hj. destruct Hj as [Hj| ->]; [auto|exact Em].
  - (* fi_lead *) intros j Hj. apply In_snoc in Hj. destruct Hj as [Hj| ->].
    + destruct (Hlead j Hj) as (x & Hx & A). exists x. rewrite Hcl by assumption. split; [apply In_snoc; auto|exact A].
    + exists t. repeat split; [apply In_snoc; auto| |].
      * unfold topen. cbn. destruct st; congruence.
      * apply nth_middle.
  - (* fi_reg *) intros x Hx Ho Hc. apply In_snoc in Hx. destruct Hx as [Hx| ->].
    + rewrite Hcl in Hc by assumption. destruct (Hreg x Hx Ho Hc) as (j & Hj & A).
      exists j. split; [apply In_snoc; auto|exact A].
    + exists i. split; [apply In_snoc; auto|split; reflexivity].
  - (* fi_cells *) intros a b Ha Hb Hc. apply In_snoc in Ha. apply In_snoc in Hb.
    destruct Ha as [Ha| ->], Hb as [Hb| ->]; auto.
    + pose proof (Hclt a Ha). cbn in Hc. lia.
    + pose proof (Hclt b Hb). cbn in Hc. lia.
  - (* fi_cell_lt *) intros x Hx. rewrite app_length. apply In_snoc in Hx. destruct Hx as [Hx| ->].
    + pose proof (Hclt x Hx). lia.
    + cbn. lia.
  - (* fi_ids *) intros x Hx. apply In_snoc in Hx. destruct Hx as [Hx| ->].
    + pose proof (Hids x Hx). lia.
    + cbn. lia.
  - (* fi_wait *) intros c'. rewrite res_of_app_new by assumption. destruct (N.eqb_spec c' c) as [->|_]; intros Hp.
    + exists i. split; [apply In_snoc; auto|left; reflexivity].
    + destruct (Hwait c' Hp) as (j & Hj & Hw). exists j. split; [apply In_snoc; auto|assumption].
Qed.

(* InflightManager::take followed by [answer]: look the entry of [k] up and, if [id] is given, [settle] it only
   while that id still leads it (a task that was overtaken by an insert takes nothing) *)
Definition take_answer (s : fstate) (k : N) (id : option N) (r : res) : fstate :=
  match find_infl k (infls s) with
  | Some i => if match id with None => true | Some x => N.eqb x (iid i) end then settle s k i r else s
  | None => s
  end.

Lemma take_answer_frame s k id r :
  let s' := take_answer s k id r in
  mem s' = mem s /\ tasks s' = tasks s /\ started s' = started s /\ finished s' = finished s /\
  forall j, In j (infls s') -> In j (infls s).
Proof.
  unfold take_answer. destruct (find_infl k (infls s)) as [i|]; [|cbv zeta; auto].
  destruct (match id with None => true | Some x => N.eqb x (iid i) end); cbv zeta; auto.
  repeat split. intros j Hj. apply del_infl_In in Hj. tauto.
Qed.

Lemma FInv_take_answer s k id r : FInv s -> r <> RPending -> FInv (take_answer s k id r).
Proof.
  intros HI Hr. unfold take_answer. destruct (find_infl k (infls s)) as [i|] eqn:Ef; [|assumption].
  destruct (match id with None => true | Some x => N.eqb x (iid i) end); [|assumption].
  apply FInv_settle; assumption.
Qed.

Lemma take_any_no_entry s k r : find_infl k (infls (take_answer s k None r)) = None.
Proof.
  unfold take_answer. destruct (find_infl k (infls s)) as [i|] eqn:Ef; [apply find_infl_del_same|exact Ef].
Qed.

Lemma do_insert_eq s k v :
  do_insert s k v = with_mem (take_answer s k None (REntry v)) ((k, v) :: mremove k (mem s)).
Proof.
  unfold do_insert, take, take_answer. destruct (find_infl k (infls s)); reflexivity.
Qed.

Lemma do_insert_frame s k v :
  let s' := do_insert s k v in
  mem s' = (k, v) :: mremove k (mem s) /\ tasks s' = tasks s /\ started s' = started s /\
  find_infl k (infls s') = None.
Proof.
  cbv zeta. rewrite do_insert_eq. destruct (take_answer_frame s k None (REntry v)) as (_ & B & D & _).
  repeat split; auto. apply take_any_no_entry.
Qed.

Lemma FInv_do_insert s k v : FInv s -> FInv (do_insert s k v).
Proof.
  intros HI. rewrite do_insert_eq. apply FInv_with_mem; [apply FInv_take_answer; [assumption|discriminate]|].
  intros j Hj. rewrite mlookup_put_other.
  - apply (fi_mem s HI). apply (take_answer_frame s k None (REntry v)). assumption.
  - intros He. pose proof (take_any_no_entry s k (REntry v)) as Hn. exact (find_infl_None _ _ Hn j Hj He).
Qed.

(* a task may finish if it leads no entry; the entry it would lead is the one of its key, and its flag is then unset *)
Lemma FInv_task_done s t :
  FInv s -> In t (tasks s) ->
  (forall i, find_infl (tkey t) (infls s) = Some i -> closed s t = false -> iid i <> tid t) ->
  FInv (with_tasks s (set_task (tid t) TDone (tasks s))).
Proof.
  intros HI Ht Hn. apply FInv_set_task; auto. intros _ i Hi He.
  destruct (led_entry s t i HI Ht Hi He) as [E F]. exact (Hn i E F He).
Qed.

(* The drop path of a fetch task (RawFetch's PinnedDrop; also how an error is delivered).  Fetch.v writes it out
   in try_set_required, twice in poll_req, and in kill_task. *)
Definition retire (s : fstate) (t : task) (r : res) : fstate :=
  let '(s1, ws) := take s (tkey t) (Some (tid t)) in
  let s2 := match ws with Some ws => answer s1 ws r | None => s1 end in
  with_tasks s2 (set_task (tid t) TDone (tasks s2)).

Lemma retire_eq s t r :
  retire s t r = with_tasks (take_answer s (tkey t) (Some (tid t)) r) (set_task (tid t) TDone (tasks s)).
Proof.
  unfold retire, take_answer, take.
  destruct (find_infl (tkey t) (infls s)) as [i|]; [destruct (N.eqb (tid t) (iid i))|]; reflexivity.
Qed.

Lemma retire_frame s t r :
  let s' := retire s t r in
  mem s' = mem s /\ tasks s' = set_task (tid t) TDone (tasks s) /\ started s' = started s.
Proof.
  cbv zeta. rewrite retire_eq. destruct (take_answer_frame s (tkey t) (Some (tid t)) r) as (A & _ & D & _). auto.
Qed.

Lemma FInv_retire s t r : FInv s -> In t (tasks s) -> r <> RPending -> FInv (retire s t r).
Proof.
  intros HI Ht Hr. rewrite retire_eq.
  pose proof (FInv_take_answer s (tkey t) (Some (tid t)) r HI Hr) as H2.
  destruct (take_answer_frame s (tkey t) (Some (tid t)) r) as (_ & B & _).
  rewrite <- B. apply FInv_task_done; [assumption|rewrite B; assumption|].
  intros j. unfold take_answer. destruct (find_infl (tkey t) (infls s)) as [i|] eqn:Ef; [|congruence].
  destruct (N.eqb_spec (tid t) (iid i)) as [E|Hne]; [|congruence].
  cbn [settle infls]. rewrite find_infl_del_same. discriminate.
Qed.

Lemma FInv_try_set_required s t req r :
  FInv s -> In t (tasks s) -> topen t = true -> r <> RPending -> FInv (try_set_required s t req r).
Proof.
  intros HI Ht Ho Hr. unfold try_set_required.
  assert (Hfetch : forall s' f, FInv s' -> tasks s' = tasks s ->
            FInv (with_tasks (start_fetch s' f) (set_task (tid t) (TReq f) (tasks s')))).
  { intros s' f HI' Hts. apply (FInv_set_task (start_fetch s' f) t); auto using FInv_start_fetch; [|discriminate].
    cbn [tasks start_fetch]. rewrite Hts. assumption. }
  destruct req as [f|]; [apply (Hfetch s); auto|].
  destruct (find_infl (tkey t) (infls s)) as [i|] eqn:Ef.
  - destruct (N.eqb_spec (iid i) (tid t)) as [He|Hne]; cbn [negb].
    + destruct (idon i) as [f|].
      * apply (Hfetch (mkF _ _ _ _ _ _ _ _)); [|reflexivity]. apply FInv_upd_infl; auto.
      * apply FInv_retire; assumption.
    + apply FInv_task_done; auto. intros j Ej _. congruence.
  - apply FInv_task_done; auto. intros j Ej. congruence.
Qed.

Lemma FInv_poll_init s t : FInv s -> In t (tasks s) -> topen t = true -> FInv (poll_init s t).
Proof.
  intros HI Ht Ho. unfold poll_init. destruct (tst t) as [[|] req|req|f|] eqn:E; auto.
  - apply FInv_set_task; auto. discriminate.
  - apply FInv_try_set_required; auto. discriminate.
Qed.

Lemma FInv_done_after_insert s t v :
  FInv s -> In t (tasks s) ->
  FInv (with_tasks (do_insert s (tkey t) v) (set_task (tid t) TDone (tasks (do_insert s (tkey t) v)))).
Proof.
  intros HI Ht. pose proof (FInv_do_insert s (tkey t) v HI) as H1.
  destruct (do_insert_frame s (tkey t) v) as (_ & A & _ & B).
  apply FInv_task_done; [assumption|rewrite A; assumption|]. intros i E. congruence.
Qed.

Lemma FInv_poll_opt s t o : FInv s -> In t (tasks s) -> FInv (poll_opt s t o).
Proof.
  intros HI Ht. unfold poll_opt. destruct (tst t) as [ho req|req|f|] eqn:E; auto.
  assert (Ho : topen t = true) by (unfold topen; rewrite E; reflexivity).
  destruct (closed s t) eqn:Hc; [apply FInv_task_done; auto; intros i _ F; congruence|].
  destruct o as [v| |].
  - apply FInv_done_after_insert; assumption.
  - apply FInv_try_set_required; auto. discriminate.
  - apply FInv_try_set_required; auto. discriminate.
Qed.

Lemma FInv_poll_req s t r : FInv s -> In t (tasks s) -> FInv (poll_req s t r).
Proof.
  intros HI Ht. unfold poll_req. destruct (tst t) as [ho req|req|f|] eqn:E; auto.
  pose proof (FInv_finish_fetch s f HI) as H1. change (In t (tasks (finish_fetch s f))) in Ht.
  assert (Hdrop : forall k, FInv (retire (finish_fetch s f) t (RErr k))) by (intros; apply FInv_retire; auto; discriminate).
  destruct r as [v| |]; [| |apply Hdrop];
    (destruct (closed (finish_fetch s f) t) eqn:Hc; [apply FInv_task_done; auto; intros i _ F; congruence|]).
  - apply FInv_done_after_insert; assumption.
  - apply Hdrop.
Qed.

Lemma find_opt_task_In c l x : find_opt_task c l = Some x -> In x l /\ exists rq, tst x = TOpt rq.
Proof.
  induction l as [|y l IH]; simpl; [discriminate|].
  destruct (tst y) as [ho rq|rq|g|] eqn:E; try (intros H; destruct (IH H); auto).
  destruct (N.eqb c (tlead y)); intros H; [inversion H; subst; eauto|destruct (IH H); auto].
Qed.

Lemma find_req_task_In f l x : find_req_task f l = Some x -> In x l /\ tst x = TReq f.
Proof.
  induction l as [|y l IH]; simpl; [discriminate|].
  destruct (tst y) as [ho rq|rq|g|] eqn:E; try (intros H; destruct (IH H); auto).
  destruct (N.eqb_spec f g) as [->|Hne]; intros H; [inversion H; subst; auto|destruct (IH H); auto].
Qed.

Lemma find_task_In t l x : find_task t l = Some x -> In x l.
Proof.
  induction l as [|y l IH]; simpl; [discriminate|].
  destruct (N.eqb t (tid y)); intros H; [inversion H; left; reflexivity|right; auto].
Qed.

Lemma FInv_call s c k ho hr pn : FInv s -> FInv (call false s c k ho hr pn).
Proof.
  intros HI. unfold call. destruct (known_caller s c) eqn:Ek; [assumption|].
  pose proof (known_caller_res s c Ek) as Hres.
  destruct (mlookup k (mem s)) as [v|] eqn:Em.
  - pose proof HI as [Hkeys Htids Hmem Hlead Hreg Hcells Hclt Hids Hwait].
    constructor; cbn [mem infls tasks cells callers next_id]; auto.
    intros c'. rewrite res_of_app_new by assumption. destruct (N.eqb c' c); [discriminate|auto].
  - destruct (find_infl k (infls s)) as [i|] eqn:Ef.
    + apply FInv_upd_infl; auto.
      * intros j. cbn [ikey iid icell iwaiters]. repeat split; auto. intros c0 H. apply in_app_iff. auto.
      * intros c'. rewrite res_of_app_new by assumption. destruct (N.eqb_spec c' c) as [->|_]; [intros _; right|auto].
        destruct (find_infl_In _ _ _ Ef) as [Hin Hk]. exists i. repeat split; auto.
        cbn [iwaiters]. apply In_snoc. auto.
    + cbn [negb]. set (st := TInit ho (if hr then Some c else None)).
      pose proof (FInv_spawn s c k st HI Hres Em Ef) as H0.
      destruct pn; [|apply H0; discriminate].
      apply FInv_poll_init; [apply H0; discriminate|cbn [tasks]; apply In_snoc; auto|reflexivity].
Qed.

Lemma FInv_kill_task s t : FInv s -> In t (tasks s) -> FInv (kill_task s t).
Proof.
  intros HI Ht. unfold kill_task. destruct (tst t); try assumption; apply (FInv_retire s t (RErr 1)); auto; discriminate.
Qed.

(* [kill_all] folds over the task list it started with; any list would do *)
Lemma kill_all_ind (P : fstate -> Prop) :
  (forall s t, P s -> In t (tasks s) -> P (kill_task s t)) -> forall s, P s -> P (kill_all s).
Proof.
  intros Hk s. unfold kill_all. generalize (tasks s) at 1. intros l. revert s.
  induction l as [|t l IH]; intros s HP; simpl; [assumption|].
  apply IH. destruct (find_task (tid t) (tasks s)) as [x|] eqn:E; [|assumption].
  apply Hk; [assumption|]. eapply find_task_In; eauto.
Qed.

Lemma FInv_fstep s a : FInv s -> FInv (fstep false s a).
Proof.
  intros HI. destruct a; cbn [fstep].
  - apply FInv_call; assumption.
  - apply FInv_call; assumption.
  - apply kill_all_ind; [|assumption]. apply FInv_kill_task.
  - destruct (find_opt_task c (tasks s)) as [x|] eqn:E; [|assumption].
    apply FInv_poll_opt; [assumption|]. apply (find_opt_task_In _ _ _ E).
  - destruct (find_req_task f (tasks s)) as [x|] eqn:E; [|assumption].
    apply FInv_poll_req; [assumption|]. apply (find_req_task_In _ _ _ E).
  - apply FInv_do_insert; assumption.
  - apply FInv_with_mem; [assumption|]. intros i Hi.
    destruct (N.eq_dec (ikey i) k) as [->|Hne]; [apply mlookup_mremove_same|].
    rewrite mlookup_mremove_other by assumption. apply (fi_mem s HI). assumption.
Qed.

Lemma FInv_frun l : forall s, FInv s -> FInv (frun false s l).
Proof. apply fold_left_ind. intros s a. apply FInv_fstep. Qed.

Lemma FInv_reach l : FInv (frun false init_f l).
Proof. apply FInv_frun, FInv_init. Qed.

(* C06: at most one registered (unclosed) task per key, hence at most one origin fetch that can
   still deliver for that key *)
Lemma single_flight s t1 t2 :
  FInv s -> In t1 (tasks s) -> In t2 (tasks s) ->
  topen t1 = true -> topen t2 = true -> closed s t1 = false -> closed s t2 = false ->
  tkey t1 = tkey t2 -> t1 = t2.
Proof.
  intros HI H1 H2 O1 O2 C1 C2 Hk.
  destruct (fi_reg s HI t1 H1 O1 C1) as (i1 & Hi1 & A1 & _).
  destruct (fi_reg s HI t2 H2 O2 C2) as (i2 & Hi2 & A2 & _).
  destruct (led_entry s t1 i1 HI H1 Hi1 A1) as [E1 _], (led_entry s t2 i2 HI H2 Hi2 A2) as [E2 _].
  apply (tid_inj s); auto. congruence.
Qed.

Lemma try_set_required_frame s t req r :
  let s' := try_set_required s t req r in
  mem s' = mem s /\
  ((tasks s' = set_task (tid t) TDone (tasks s) /\ started s' = started s) \/
   exists f, tasks s' = set_task (tid t) (TReq f) (tasks s) /\ started s' = started s ++ [f]).
Proof.
  unfold try_set_required.
  destruct req as [f|];
    [|destruct (find_infl (tkey t) (infls s)) as [i|];
      [destruct (negb (N.eqb (iid i) (tid t))); [|destruct (idon i) as [f|]]|]].
  (* five outcomes; all but the last (own entry, nothing donated: the drop path) compute *)
  all: cbn [mem tasks started with_tasks start_fetch]; eauto 7.
  destruct (retire_frame s t r) as (A & B & D). split; [exact A|left; split; [exact B|exact D]].
Qed.

Definition stage (t : task) : nat :=
  match tst t with TInit _ _ => 3 | TOpt _ => 2 | TReq _ => 1 | TDone => 0 end%nat.

(* what progress (C06) and "not overwritten" (C11) both need from one poll of [x] with a resolved future *)
Definition polled (s : fstate) (x : task) (s' : fstate) : Prop :=
  (exists st, tasks s' = set_task (tid x) st (tasks s) /\ (stage (restate st x) < stage x)%nat) /\
  (mem s' = mem s \/ exists v, closed s x = false /\ mem s' = (tkey x, v) :: mremove (tkey x) (mem s)).

Lemma polled_insert s x v :
  (0 < stage x)%nat -> closed s x = false ->
  polled s x (with_tasks (do_insert s (tkey x) v) (set_task (tid x) TDone (tasks (do_insert s (tkey x) v)))).
Proof.
  intros Hs Hc. destruct (do_insert_frame s (tkey x) v) as (A & B & _). split; cbn [with_tasks tasks mem].
  - exists TDone. rewrite B. auto.
  - right. exists v. auto.
Qed.

Lemma poll_opt_polled s x o rq : tst x = TOpt rq -> polled s x (poll_opt s x o).
Proof.
  intros Et. assert (Hs : stage x = 2%nat) by (unfold stage; rewrite Et; reflexivity).
  assert (Htsr : forall r, polled s x (try_set_required s x rq r)).
  { intros r. destruct (try_set_required_frame s x rq r) as (A & [[B _]|(f & B & _)]); (split; [|auto]).
    - exists TDone. rewrite Hs. auto.
    - exists (TReq f). rewrite Hs. auto. }
  unfold poll_opt. rewrite Et. destruct (closed s x) eqn:Hc.
  - split; [exists TDone; rewrite Hs|]; auto.
  - destruct o as [v| |]; [apply polled_insert; [lia|assumption]|apply Htsr|apply Htsr].
Qed.

Lemma poll_req_polled s x r f : tst x = TReq f -> polled s x (poll_req s x r).
Proof.
  intros Et. assert (Hs : stage x = 1%nat) by (unfold stage; rewrite Et; reflexivity).
  assert (Hdone : forall s', tasks s' = set_task (tid x) TDone (tasks s) -> mem s' = mem s -> polled s x s').
  { intros s' A B. split; [exists TDone; rewrite Hs|]; auto. }
  assert (Hdrop : forall k, polled s x (retire (finish_fetch s f) x (RErr k))).
  { intros k. destruct (retire_frame (finish_fetch s f) x (RErr k)) as (A & B & _). apply Hdone; assumption. }
  unfold poll_req. rewrite Et. destruct r as [v| |]; [| |apply Hdrop];
    (destruct (closed (finish_fetch s f) x) eqn:Hc; [apply Hdone; reflexivity|]).
  - apply (polled_insert (finish_fetch s f)); [lia|assumption].
  - apply Hdrop.
Qed.

(* C06: a fetch that failed or was cancelled leaves memory as it is *)
Lemma poll_req_failed s x r : (forall v, r <> FOk v) -> mem (poll_req s x r) = mem s.
Proof.
  intros Hr. unfold poll_req. destruct (tst x) as [ho rq|rq|f|]; try reflexivity.
  destruct r as [v| |]; [destruct (Hr v eq_refl)|destruct (closed (finish_fetch s f) x); [reflexivity|]|];
    apply (retire_frame (finish_fetch s f)).
Qed.

Definition measure (s : fstate) : nat := fold_right (fun t a => (stage t + a)%nat) 0%nat (tasks s).

Lemma set_task_lowers st l x :
  NoDup (map tid l) -> In x l -> (stage (restate st x) < stage x)%nat ->
  (fold_right (fun t a => (stage t + a)%nat) 0%nat (set_task (tid x) st l) <
   fold_right (fun t a => (stage t + a)%nat) 0%nat l)%nat.
Proof.
  induction l as [|y l IH]; cbn [set_task fold_right map In]; intros Hnd Hin Hlt; [contradiction|].
  inversion Hnd as [|? ? Hnot Hnd']; subst.
  destruct (N.eqb_spec (tid x) (tid y)) as [H|H]; cbn [fold_right].
  - destruct Hin as [<-|Hin]; [apply Nat.add_lt_mono_r; exact Hlt|].
    exfalso. apply Hnot. rewrite <- H. apply in_map. assumption.
  - destruct Hin as [<-|Hin]; [congruence|]. apply Nat.add_lt_mono_l. auto.
Qed.

Lemma polled_progress s x s' : FInv s -> In x (tasks s) -> polled s x s' -> (measure s' < measure s)%nat.
Proof.
  intros HI Hx [(st & Ht & Hlt) _]. unfold measure. rewrite Ht.
  apply set_task_lowers; [apply (fi_tids s HI)|assumption..].
Qed.

Lemma call_frame b s c k ho hr pn :
  let s' := call b s c k ho hr pn in
  mem s' = mem s /\
  (started s' = started s \/
   mlookup k (mem s) = None /\ find_infl k (infls s) = None /\ ho = false /\ pn = true /\
   exists f, started s' = started s ++ [f]).
Proof.
  cbv zeta. unfold call. destruct (known_caller s c); [auto|].
  destruct (mlookup k (mem s)); [auto|]. destruct (find_infl k (infls s)); [auto|].
  destruct pn; [|auto]. unfold poll_init. cbn [tst]. destruct ho; [auto|].
  edestruct try_set_required_frame as (A & [[_ D]|(f & _ & D)]); (split; [exact A|]); [left; exact D|right; eauto 6].
Qed.

Lemma kill_all_mem s : mem (kill_all s) = mem s.
Proof.
  apply (kill_all_ind (fun s' => mem s' = mem s)); [|reflexivity].
  intros s' t H _. unfold kill_task. destruct (tst t); try assumption; exact (eq_trans (proj1 (retire_frame s' t (RErr 1))) H).
Qed.

Definition touches (k : N) (a : act) : bool :=
  match a with AInsert k' _ | ARemove k' => N.eqb k k' | _ => false end.

Lemma fstep_mem_other s a k :
  (forall t, In t (tasks s) -> topen t = true -> closed s t = false -> tkey t <> k) ->
  touches k a = false -> mlookup k (mem (fstep false s a)) = mlookup k (mem s).
Proof.
  intros Hreg Ht.
  assert (Hpoll : forall x s', In x (tasks s) -> polled s x s' -> mlookup k (mem s') = mlookup k (mem s)).
  { intros x s' Hx [(st & _ & Hlt) [->|(v' & Hc & ->)]]; [reflexivity|].
    apply mlookup_put_other. intros He. apply (Hreg x Hx); auto.
    unfold topen. unfold stage in Hlt. destruct (tst x); [reflexivity..|lia]. }
  destruct a; cbn [fstep touches] in *.
  - rewrite (proj1 (call_frame _ _ _ _ _ _ _)). reflexivity.
  - rewrite (proj1 (call_frame _ _ _ _ _ _ _)). reflexivity.
  - rewrite kill_all_mem. reflexivity.
  - destruct (find_opt_task c (tasks s)) as [x|] eqn:E; [|reflexivity].
    destruct (find_opt_task_In _ _ _ E) as [Hx [rq Et]]. apply (Hpoll x _ Hx). apply (poll_opt_polled s x o rq Et).
  - destruct (find_req_task f (tasks s)) as [x|] eqn:E; [|reflexivity].
    destruct (find_req_task_In _ _ _ E) as [Hx Et]. apply (Hpoll x _ Hx). apply (poll_req_polled s x r f Et).
  - rewrite (proj1 (do_insert_frame s k0 v)). apply mlookup_put_other, N.eqb_neq, Ht.
  - apply mlookup_mremove_other, N.eqb_neq, Ht.
Qed.

(* a key in memory is no registered task's key *)
Lemma fstep_keeps_value s a k v :
  FInv s -> mlookup k (mem s) = Some v -> touches k a = false -> mlookup k (mem (fstep false s a)) = Some v.
Proof.
  intros HI Hm Ht. rewrite fstep_mem_other; [assumption| |assumption].
  intros t Hin Ho Hc He. destruct (fi_reg s HI t Hin Ho Hc) as (i & Hi & _ & B).
  pose proof (fi_mem s HI i Hi) as Hn. rewrite B, He, Hm in Hn. discriminate.
Qed.

(* C11: once insert(k, v) has completed, memory changes for k only through an explicit insert or remove of k *)
Lemma frun_keeps_value l : forall s k v,
  FInv s -> mlookup k (mem s) = Some v -> forallb (fun a => negb (touches k a)) l = true ->
  mlookup k (mem (frun false s l)) = Some v.
Proof.
  unfold frun. induction l as [|a l IH]; intros s k v HI Hm Hq; simpl; [assumption|].
  simpl in Hq. apply andb_true_iff in Hq. destruct Hq as [Ha Hl]. apply negb_true_iff in Ha.
  apply IH; [apply FInv_fstep; assumption| |assumption].
  apply fstep_keeps_value; assumption.
Qed.

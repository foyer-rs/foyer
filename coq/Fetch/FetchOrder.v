(* When does an origin fetch start?  (C12: "the origin fetch runs only after memory missed and the disk
   lookup missed, was throttled or failed".)  [started s] lists the origin fetches whose future was built
   and polled.  It grows in [try_set_required] alone, which a task reaches in its first poll if it has no disk
   stage, and otherwise when that stage missed or failed (a throttled load is reported to the memory cache as a
   miss). *)
From Coq Require Import List.
From FV Require Import Fetch.Fetch Fetch.FetchInv.
Import ListNotations.
Open Scope N_scope.

Lemma started_try_set_required s t req nf :
  started (try_set_required s t req nf) = started s \/
  exists f, started (try_set_required s t req nf) = started s ++ [f].
Proof.
  destruct (try_set_required_frame s t req nf) as (_ & [[_ D]|(f & _ & D)]); eauto.
Qed.

Lemma join_starts_nothing s c k ho hr pn i :
  find_infl k (infls s) = Some i -> started (call false s c k ho hr pn) = started s.
Proof. intros Hf. destruct (call_frame false s c k ho hr pn) as (_ & [E|(_ & Hn & _)]); [exact E|congruence]. Qed.

Lemma disk_hit_starts_nothing s t v : started (poll_opt s t (OHit v)) = started s.
Proof.
  unfold poll_opt. destruct (tst t); try reflexivity.
  destruct (closed s t); [reflexivity|]. apply (do_insert_frame s (tkey t) v).
Qed.

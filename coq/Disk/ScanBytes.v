(* Disk/BlobIndex.v's bytes under Disk/Scan.v's reader: c07_scan_exact_bytes. *)
From Coq Require Import List NArith.
From FV Require Import Disk.Codec Disk.BlobIndex Disk.BlobIndexProofs Disk.Splitter Disk.Scan.
Import ListNotations.
Open Scope N_scope.

Definition idx_of_bent (e : bent) : idx := mkIdx (be_hash e) (be_seq e) (be_off e) (be_len e).
Definition bent_of_idx (i : idx) : bent := mkBent (i_hash i) (i_seq i) (i_off i) (i_len i).
(* the fields fit their widths in the page (SplitterProofs.idx_ok is about where an entry lies) *)
Definition idx_ok (i : idx) : Prop := bent_ok (bent_of_idx i).

(* BlockScanner::next's read + BlobIndexReader::read over a byte device ([dev o] = the index-page-sized area at offset o).
   A page on which the real reader panics ends the scan here like any other it does not accept: only a page whose checksum
   verifies can do that (c03_index_page_panic_only_if_verified) *)
Definition rd_bytes (cksum : bytes -> N) (dev : N -> bytes) (o : N) : option (list idx) :=
  match bidx_read cksum (dev o) with BOk es => Some (map idx_of_bent es) | _ => None end.

Lemma idx_bent_id l : map idx_of_bent (map bent_of_idx l) = l.
Proof. induction l as [|i l IH]; [reflexivity|]. cbn [map]. rewrite IH. destruct i; reflexivity. Qed.

Lemma scan_ext B I f r r' : (forall o, r o = r' o) -> forall o, scan B I f r o = scan B I f r' o.
Proof.
  intros He. induction f as [|f IH]; intros o; cbn [scan]; [reflexivity|].
  rewrite <- He. destruct (r o) as [l|]; [|reflexivity]. rewrite IH. reflexivity.
Qed.

Lemma recover_block_ext B I r r' : (forall o, r o = r' o) -> recover_block B I r = recover_block B I r'.
Proof. intros He. unfold recover_block. rewrite (scan_ext B I _ r r' He). reflexivity. Qed.

Section Bytes.
  Variable cksum : bytes -> N.
  Hypothesis cksum_range : forall b, cksum b < 256 ^ 8.

  Definition represents (dev : N -> bytes) (r : N -> option (list idx)) : Prop :=
    (forall o l, r o = Some l ->
       Forall idx_ok l /\ N.of_nat (length l) < 256 ^ 4 /\ exists rest, dev o = bidx_page cksum (map bent_of_idx l) rest) /\
    (forall o, r o = None -> forall es, bidx_read cksum (dev o) <> BOk es).

  Lemma rd_bytes_represents dev r : represents dev r -> forall o, rd_bytes cksum dev o = r o.
  Proof.
    intros [Hs Hn] o. unfold rd_bytes. destruct (r o) as [l|] eqn:E.
    - destruct (Hs o l E) as (Hok & Hlen & rest & Hd). rewrite Hd.
      rewrite (bidx_roundtrip cksum cksum_range).
      + rewrite idx_bent_id. reflexivity.
      + apply Forall_map. exact Hok.
      + rewrite map_length. assumption.
    - specialize (Hn o E). destruct (bidx_read cksum (dev o)) as [es| |]; [exfalso; apply (Hn es); reflexivity|reflexivity|reflexivity].
  Qed.

  Theorem recover_block_bytes B I dev r :
    represents dev r -> recover_block B I (rd_bytes cksum dev) = recover_block B I r.
  Proof. intros H. apply recover_block_ext. apply rd_bytes_represents. assumption. Qed.
End Bytes.

(* C07, scan. *)
From Coq Require Import List NArith ZArith Lia.
From FV Require Import Base.ListX Disk.Splitter Disk.SplitterProofs Disk.Scan.
Import ListNotations.
Open Scope N_scope.

(* a blob as the flusher has it: its offset in the block, and the entries its index page lists so far *)
Notation cur := (N * list idx)%type (only parsing).

(* [Scan.step] with 0, not B, for the empty page ([step_bend]) *)
Definition bend (l : list idx) : N :=
  match last_idx l with Some i => i_off i + align (i_len i) | None => 0 end.

Lemma last_idx_some l : l <> [] -> exists i, last_idx l = Some i /\ In i l.
Proof.
  induction l as [|a l IH]; [congruence|intros _].
  destruct l as [|b l'].
  - exists a. split; [reflexivity|left; reflexivity].
  - destruct IH as [i [Hi Hin]]; [discriminate|]. exists i. split; [exact Hi|right; exact Hin].
Qed.

Lemma last_idx_app2 l1 l2 : l2 <> [] -> last_idx (l1 ++ l2) = last_idx l2.
Proof.
  intros Hne. induction l1 as [|a l1 IH]; [reflexivity|].
  change ((a :: l1) ++ l2) with (a :: (l1 ++ l2)). cbn [last_idx].
  destruct (l1 ++ l2) eqn:E; [destruct l1; [cbn in E; congruence|discriminate]|]. exact IH.
Qed.
Lemma last_idx_app l i : last_idx (l ++ [i]) = Some i.
Proof. apply (last_idx_app2 l [i]). discriminate. Qed.

(* [chain_le] keeps the section's two bounds as premises ([lia] takes them in); its proof needs neither *)
Section ChainLe.
  Variable B I : N.
  Hypothesis HIB : I < B.
  Hypothesis Hcap : 0 < icap I.
  Lemma chain_le o l o' : chain o l o' -> o <= o'.
  Proof.
    revert o. induction l as [|i l IH]; intros o; cbn [chain].
    - intros ->. lia.
    - intros [_ Hc]. specialize (IH _ Hc). lia.
  Qed.
End ChainLe.

Lemma infos_at_app o l1 l2 : infos_at o (l1 ++ l2) = infos_at o l1 ++ infos_at o l2.
Proof. unfold infos_at. apply map_app. Qed.

Fixpoint nondec (s : N) (l : list info) : Prop :=
  match l with [] => True | x :: l' => s <= n_seq x /\ nondec (n_seq x) l' end.
Fixpoint lastseq (s : N) (l : list info) : N :=
  match l with [] => s | x :: l' => lastseq (n_seq x) l' end.

Lemma cut_app l : forall s j, nondec s l -> cut s (l ++ j) = l ++ cut (lastseq s l) j.
Proof.
  induction l as [|x l IH]; intros s j Hn; cbn [app cut lastseq]; [reflexivity|].
  destruct Hn as [Hx Hn]. destruct (N.ltb_spec (n_seq x) s) as [Habs|_]; [lia|].
  rewrite (IH _ j Hn). reflexivity.
Qed.
Lemma lastseq_in l : forall s, l <> [] -> exists x, In x l /\ lastseq s l = n_seq x.
Proof.
  induction l as [|x l IH]; intros s Hne; [congruence|]. cbn [lastseq].
  destruct l as [|y l].
  - exists x. split; [left; reflexivity|reflexivity].
  - destruct (IH (n_seq x)) as [z [Hz Hl]]; [discriminate|]. exists z. split; [right; exact Hz|exact Hl].
Qed.

Section Block.
  Variable B I : N.

  Definition behind_index (l : list idx) : Prop := Forall (fun i => I <= i_off i) l.

  Lemma bend_ge l : l <> [] -> behind_index l -> I <= bend l.
  Proof.
    intros Hne Hg. destruct (last_idx_some l Hne) as [i [Hi Hin]]. unfold bend. rewrite Hi.
    unfold behind_index in Hg. rewrite Forall_forall in Hg. specialize (Hg i Hin). lia.
  Qed.

  Lemma step_bend l : l <> [] -> step B l = bend l.
  Proof. intros Hne. destruct (last_idx_some l Hne) as [i [Hi _]]. unfold step, bend. rewrite Hi. reflexivity. Qed.

  (* [c]: the open blob.  As in [Scan.wpart], p_pbo = I marks a part that starts a new blob *)
  Definition wstep_ok (c : cur) (p : part) : Prop :=
    if p_pbo p =? I then p_bbo p = fst c + bend (snd c)
    else snd c <> [] /\ p_bbo p = fst c /\ p_pbo p = bend (snd c).
  Definition wnext (c : cur) (p : part) : cur :=
    if p_pbo p =? I then (p_bbo p, p_inds p) else (fst c, snd c ++ p_inds p).
  Fixpoint wf (c : cur) (ps : list part) : Prop :=
    match ps with [] => True | p :: ps' => wstep_ok c p /\ wf (wnext c p) ps' end.
  Definition wend (c : cur) (ps : list part) : cur := fold_left wnext ps c.

  Lemma wf_app c ps qs : wf c ps -> wf (wend c ps) qs -> wf c (ps ++ qs).
  Proof.
    revert c. induction ps as [|p ps IH]; intros c; cbn [app wf wend fold_left]; [auto|].
    intros [Hs Hps] Hqs. split; [exact Hs|exact (IH _ Hps Hqs)].
  Qed.
  Lemma wend_app c ps qs : wend c (ps ++ qs) = wend (wend c ps) qs.
  Proof. unfold wend. apply fold_left_app. Qed.

  Definition blob_ok (c : cur) : Prop := snd c <> [] /\ behind_index (snd c) /\ fst c + I <= B.
  Definition pblob_ok (p : part) : Prop := blob_ok (p_bbo p, p_inds p).

  Lemma part_ok_pblob_ok p : part_ok B I p -> pblob_ok p.
  Proof.
    intros (_ & H2 & H3 & H4 & _ & H6). split; [exact H6|]. split.
    - eapply Forall_impl; [|exact H4]. intros i (Hi & _). exact Hi.
    - unfold pend in H3. cbn [fst]. lia.
  Qed.

  Lemma blob_ok_next c p : blob_ok c -> pblob_ok p -> blob_ok (wnext c p).
  Proof.
    intros (C1 & C2 & C3) Hp. unfold wnext.
    destruct (p_pbo p =? I); [exact Hp|]. destruct Hp as (_ & P2 & _).
    split; [destruct (snd c); [congruence|discriminate]|]. split; [apply Forall_app; split; assumption|assumption].
  Qed.

  Lemma wpart_next c (m : list cur) p : wstep_ok c p -> wpart I (m, snd c) p = (wnext c p :: m, snd (wnext c p)).
  Proof.
    unfold wpart, wnext, wstep_ok. destruct (p_pbo p =? I); [reflexivity|]. intros (_ & -> & _). reflexivity.
  Qed.

  Lemma wnext_ge c p : wstep_ok c p -> fst c <= fst (wnext c p).
  Proof. unfold wstep_ok, wnext. destruct (p_pbo p =? I); cbn [fst]; lia. Qed.

  Lemma wend_ge ps : forall c, wf c ps -> fst c <= fst (wend c ps).
  Proof.
    induction ps as [|p ps IH]; intros c Hwf; cbn [wend fold_left]; [lia|].
    destruct Hwf as [Hs Hwf]. pose proof (wnext_ge c p Hs). specialize (IH _ Hwf). unfold wend in IH. lia.
  Qed.

  Lemma written_outside ps : forall c (m : list cur) o, wf c ps -> o < fst c \/ fst (wend c ps) < o ->
    find_off (fst (fold_left (wpart I) ps (m, snd c))) o = find_off m o.
  Proof.
    induction ps as [|p ps IH]; intros c m o Hwf Ho; cbn [fold_left]; [reflexivity|].
    destruct Hwf as [Hs Hwf]. pose proof (wnext_ge c p Hs). pose proof (wend_ge ps _ Hwf).
    change (wend c (p :: ps)) with (wend (wnext c p) ps) in Ho.
    rewrite (wpart_next c m p Hs), (IH _ _ o Hwf) by lia.
    destruct (wnext c p) as [o' l']. cbn [find_off fst] in *.
    destruct (N.eqb_spec o o'); [lia|reflexivity].
  Qed.

  Definition cend (c : cur) : N := fst c + bend (snd c).
  Definition binfos (bl : list cur) : list info := concat (map (fun b => infos_at (fst b) (snd b)) bl).
  Definition all_infos (ps : list part) : list info := concat (map infos_of_part ps).

  Hypothesis HI : pa I.
  Hypothesis Hcap : 0 < icap I.

  Lemma page_le_I : PAGE <= I.
  Proof. destruct HI as [k Hk]. unfold icap, PAGE in *. zify. Z.div_mod_to_equations. lia. Qed.

  Lemma blob_ok_pos c : blob_ok c -> I <= bend (snd c) /\ 0 < I.
  Proof. intros (C1 & C2 & _). pose proof (bend_ge _ C1 C2). pose proof page_le_I. unfold PAGE in *. lia. Qed.

  Lemma scan_blob r c f : blob_ok c -> B < fst c + N.of_nat f * PAGE -> r (fst c) = Some (snd c) ->
    exists f', f = S f' /\ scan B I f r (fst c) = c :: scan B I f' r (cend c).
  Proof.
    intros (C1 & C2 & C3) Hf Hr. destruct f as [|f']; [lia|]. exists f'. split; [reflexivity|]. cbn [scan].
    destruct (N.ltb_spec B (fst c + I)) as [Habs|_]; [lia|]. rewrite Hr, (step_bend _ C1). destruct c; reflexivity.
  Qed.

  (* The scanner over what the flusher leaves, one part at a time: [c :: m] is the memory when the page of the open blob
     [c] was written last.  A part that starts a blob makes [c]'s page final - the later pages lie behind it
     ([written_outside]) - and the scanner steps there; one that continues [c]'s blob replaces the page.  The fuel is
     measured in pages to the end of the block, of which a blob takes at least one. *)
  Lemma scan_parts stale ps : forall c m f, wf c ps -> blob_ok c -> Forall pblob_ok ps -> B < fst c + N.of_nat f * PAGE ->
    let r := rd (fst (fold_left (wpart I) ps (c :: m, snd c))) stale in
    blob_ok (wend c ps) /\
    exists f', binfos (scan B I f r (fst c)) =
               infos_at (fst c) (snd c) ++ all_infos ps ++ binfos (scan B I f' r (cend (wend c ps))).
  Proof.
    induction ps as [|p ps IH]; intros c m f Hwf Hc Hps Hf; cbn [fold_left]; cbv zeta.
    - cbn [fst]. split; [exact Hc|]. destruct (scan_blob (rd (c :: m) stale) c f Hc Hf) as (f' & _ & ->).
      { destruct c. unfold rd. cbn [find_off fst]. rewrite N.eqb_refl. reflexivity. }
      exists f'. reflexivity.
    - destruct Hwf as [Hs Hwf]. inversion Hps as [|? ? Hp Hps']; subst.
      pose proof (blob_ok_next c p Hc Hp) as Hc1. pose proof (blob_ok_pos c Hc) as Hpos. pose proof page_le_I as HP.
      rewrite (wpart_next c (c :: m) p Hs). change (wend c (p :: ps)) with (wend (wnext c p) ps).
      change (all_infos (p :: ps)) with (infos_of_part p ++ all_infos ps).
      specialize (IH (wnext c p) (c :: m)). cbv zeta in IH.
      set (r := rd (fst (fold_left (wpart I) ps (wnext c p :: c :: m, snd (wnext c p)))) stale) in *.
      unfold wstep_ok, wnext in *. destruct (p_pbo p =? I); cbn [fst snd] in *.
      + (* a new blob *)
        destruct (scan_blob r c f Hc Hf) as (f1 & -> & ->).
        { unfold r, rd. rewrite (written_outside ps (p_bbo p, p_inds p)) by (auto; cbn [fst]; lia).
          destruct c as [oc lc]. cbn [find_off fst snd] in *. destruct (N.eqb_spec oc (p_bbo p)); [lia|].
          rewrite N.eqb_refl. reflexivity. }
        destruct (IH f1 Hwf Hc1 Hps') as (Hlast & f' & E); [rewrite Nat2N.inj_succ in Hf; lia|].
        split; [exact Hlast|]. exists f'. unfold cend at 1. rewrite <- Hs.
        change (binfos (c :: ?l)) with (infos_at (fst c) (snd c) ++ binfos l). rewrite E, <- app_assoc. reflexivity.
      + (* the same blob *)
        destruct (IH f Hwf Hc1 Hps' Hf) as (Hlast & f' & E). split; [exact Hlast|]. exists f'. rewrite E.
        unfold infos_of_part. destruct Hs as (_ & -> & _). rewrite infos_at_app, <- !app_assoc. reflexivity.
  Qed.

  Lemma cut_older r e s : (forall i l, r e = Some (i :: l) -> i_seq i < s) -> forall f, cut s (binfos (scan B I f r e)) = [].
  Proof.
    intros Hr f. destruct f as [|f]; [reflexivity|]. cbn [scan]. destruct (B <? e + I); [reflexivity|].
    destruct (r e) as [[|i l]|]; [| |reflexivity (* unreadable: the scan ends *)].
    - (* an empty page: the scanner steps by B and ends *)
      unfold binfos. cbn [map concat fst snd infos_at app]. unfold step. cbn [last_idx].
      destruct f as [|f]; [reflexivity|]. cbn [scan].
      destruct (N.ltb_spec B (e + B + I)) as [_|Habs]; [reflexivity|]. pose proof page_le_I. unfold PAGE in *. lia.
    - specialize (Hr i l eq_refl). unfold binfos. cbn [map concat fst snd infos_at app cut n_seq].
      destruct (N.ltb_spec (i_seq i) s) as [_|Habs]; [reflexivity|lia].
  Qed.

  (* of the old content only the page right behind the last blob matters *)
  Theorem scan_written ps stale :
    wf (0, []) ps -> Forall (part_ok B I) ps -> ps <> [] ->
    nondec 0 (all_infos ps) ->
    (forall o l i x, stale o = Some l -> In i l -> In x (all_infos ps) -> i_seq i < n_seq x) ->
    recover_block B I (rd (written I ps) stale) = all_infos ps.
  Proof.
    intros Hwf Hok Hne Hnd Hst. apply (Forall_impl _ part_ok_pblob_ok) in Hok.
    destruct ps as [|p ps]; [congruence|]. inversion Hok as [|? ? Hc1 Hps]; subst.
    pose proof (written_outside (p :: ps) (0, []) [] (cend (wend (0, []) (p :: ps))) Hwf) as Hend.
    change (wend (0, []) (p :: ps)) with (wend (wnext (0, []) p) ps) in Hend. destruct Hwf as [Hs Hwf].
    unfold written. cbn [fold_left snd] in *. rewrite (wpart_next (0, []) [] p Hs : wpart I ([], []) p = _) in *.
    (* nothing is open before the first part, so it starts a blob, at offset 0 *)
    unfold wstep_ok, wnext in *. cbn [fst snd] in Hs.
    destruct (p_pbo p =? I); [|destruct (proj1 Hs eq_refl)].
    change (p_bbo p = 0) in Hs. set (c1 := (p_bbo p, p_inds p)) in *.
    destruct (scan_parts stale ps c1 [] (scan_fuel B) Hwf Hc1 Hps) as (Hlast & f' & E).
    { unfold scan_fuel. pose proof (N.mul_succ_div_gt B PAGE). unfold c1, PAGE in *. cbn [fst]. lia. }
    set (r := rd (fst (fold_left (wpart I) ps ([c1], snd c1))) stale) in *.
    replace (recover_block B I r) with (cut 0 (binfos (scan B I (scan_fuel B) r (fst c1)))) by (cbn [c1 fst]; rewrite Hs; reflexivity).
    rewrite E, app_assoc.
    change (infos_at (fst c1) (snd c1) ++ all_infos ps) with (all_infos (p :: ps)) in *.
    rewrite (cut_app _ 0 _ Hnd), cut_older; [apply app_nil_r|]. intros i l Est.
    (* nothing was written behind the last blob *)
    unfold r, rd in Est. pose proof (blob_ok_pos _ Hlast). rewrite Hend in Est by (unfold cend; lia). cbn [find_off] in Est.
    destruct (lastseq_in (all_infos (p :: ps)) 0) as [z [Hz ->]]; [|exact (Hst _ _ i z Est (or_introl eq_refl) Hz)].
    unfold all_infos, infos_of_part, infos_at. cbn [map concat]. destruct Hc1 as [Hi _]. cbn [snd] in Hi. destruct (p_inds p); [congruence|discriminate].
  Qed.

End Block.

Section Batches.
  Variable B I : N.

  Lemma chain_bend l : forall o o', chain o l o' -> l <> [] -> bend l = o'.
  Proof.
    induction l as [|i l IH]; intros o o' Hc Hne; [congruence|].
    destruct Hc as [Hi Hc]. destruct l as [|j l].
    - cbn [chain] in Hc. unfold bend. cbn [last_idx]. lia.
    - apply (IH _ _ Hc). discriminate.
  Qed.

  Lemma block_parts_app g em1 em2 : block_parts g (em1 ++ em2) = block_parts g em1 ++ block_parts g em2.
  Proof. unfold block_parts. rewrite filter_app, map_app. reflexivity. Qed.
  Lemma block_parts_one g g' q : block_parts g' [(g, q)] = if g =? g' then [q] else [].
  Proof. unfold block_parts. cbn [filter fst]. destruct (g =? g'); reflexivity. Qed.
  Lemma block_parts_above g em : (forall x, In x em -> fst x <= g) -> block_parts (g + 1) em = [].
  Proof.
    intros H. unfold block_parts. induction em as [|x em IH]; [reflexivity|]. cbn [filter].
    destruct (N.eqb_spec (fst x) (g + 1)) as [E|_].
    - pose proof (H x (or_introl eq_refl)). lia.
    - apply IH. intros y Hy. apply H. right; exact Hy.
  Qed.

  (* The flusher's writes as the scan will see them, and all that this section knows of [wf] ([Flush_wf]).  [em]: the
     parts written so far with their physical block numbers, in the order written; [g]: the block being filled; the
     next part is expected at blob offset [b] and part offset [o]: it continues the blob of the part before it, or
     (o = I) starts a blob right behind that part, or a block. *)
  Inductive Flush : list (N * part) -> N -> N -> N -> Prop :=
  | fl_init : Flush [] 0 0 I
  | fl_part em g q b o : Flush em g (p_bbo q) (p_pbo q) -> part_ok B I q ->
      (if o =? I then b = pend q else b = p_bbo q /\ o = p_pbo q + p_size q) -> Flush (em ++ [(g, q)]) g b o
  | fl_block em g b o : Flush em g b o -> Flush em (g + 1) 0 I.

  Lemma wnext_part cs q :
    wstep_ok I cs q -> part_ok B I q ->
    let cs' := wnext I cs q in fst cs' = p_bbo q /\ snd cs' <> [] /\ bend (snd cs') = p_pbo q + p_size q.
  Proof.
    intros Hs (_ & _ & _ & _ & Hch & Hne). pose proof (chain_bend _ _ _ Hch Hne) as Hbend.
    unfold wstep_ok, wnext in *. destruct (p_pbo q =? I); cbn [fst snd]; [auto|]. destruct Hs as (Hc & -> & _). split; [reflexivity|]. split.
    - destruct (snd cs); [congruence|discriminate].
    - unfold bend. rewrite (last_idx_app2 _ _ Hne). exact Hbend.
  Qed.

  (* second clause: the open blob of block [g] expects the next part where [Flush] does *)
  Theorem Flush_wf em g b o : Flush em g b o ->
    (forall x, In x em -> fst x <= g) /\ wstep_ok I (wend I (0, []) (block_parts g em)) (mkPart 0 b o 0 [] 0) /\
    forall g', wf I (0, []) (block_parts g' em) /\ Forall (part_ok B I) (block_parts g' em).
  Proof.
    assert (Hnew : wstep_ok I (0, []) (mkPart 0 0 I 0 [] 0)).
    { unfold wstep_ok. cbn [p_pbo p_bbo]. rewrite N.eqb_refl. reflexivity. }
    induction 1 as [|em g q b o _ (H1 & H2 & H3) Hq Hb|em g b o _ (H1 & H2 & H3)].
    - split; [intros x []|]. split; [exact Hnew|]. intros g'. split; constructor.
    - split; [|split].
      + intros x [Hx| ->]%In_snoc; [auto|apply N.le_refl].
      + rewrite block_parts_app, block_parts_one, N.eqb_refl, wend_app. unfold wend at 1. cbn [fold_left].
        destruct (wnext_part _ q H2 Hq) as (E1 & E2 & E3). unfold wstep_ok. cbn [p_pbo p_bbo]. rewrite E1, E3.
        unfold pend in Hb. destruct (o =? I); [lia|]. destruct Hb as [-> ->]. auto.
      + intros g'. rewrite block_parts_app, block_parts_one. destruct (H3 g') as [W P]. destruct (N.eqb_spec g g') as [<-|_].
        * (* [Logic.I]: [I] is the index size here *)
          split; [apply wf_app; [exact W|exact (conj H2 Logic.I)]|apply Forall_app; auto].
        * rewrite app_nil_r. auto.
    - split; [intros x Hx; specialize (H1 x Hx); lia|]. split; [|exact H3].
      rewrite (block_parts_above _ _ H1). exact Hnew.
  Qed.

  (* within a batch that started in physical block [g0] after [prev] was written; [glob] numbers as [globalize] does *)
  Definition glob (g0 : N) (p : part) : N * part := (g0 + p_blk p, p).
  Definition emitted (prev : list (N * part)) (g0 : N) (a : acc) : list (N * part) := prev ++ map (glob g0) (parts a).

  (* The 'handle loop's invariant: the flusher expects the open part where it will be.  Second clause: an open part with
     entries has at least a page, so that one emitted by seal_blob with its index page not yet full ends at
     po + ps <> I, and the part that follows is read as continuing the blob and not as starting a new one
     ([loop_ok_seal]). *)
  Definition loop_ok (prev : list (N * part)) (g0 : N) (c : sctx) (a : acc) : Prop :=
    Flush (emitted prev g0 a) (g0 + blk a) (bo c) (po c) /\ (inds a <> [] -> PAGE <= ps a).
  Definition between_ok (em : list (N * part)) (g : N) (c : sctx) : Prop := Flush em g (bo c) (po c).

  Lemma loop_ok_here prev g0 c a e :
    loop_ok prev g0 c a -> eok B I e -> loop_ok prev g0 (fst (here (c, a) e)) (snd (here (c, a) e)).
  Proof.
    intros [HF _] [He1 _]. split; [exact HF|]. intros _. cbn [here snd ps]. pose proof (align_pos (e_len e) He1). lia.
  Qed.

  Lemma emitted_snoc prev g0 c a x y n :
    emitted prev g0 (mkAcc x y (parts a ++ [opart c a]) n) = emitted prev g0 a ++ [(g0 + blk a, opart c a)].
  Proof. unfold emitted. cbn [parts]. rewrite map_app, app_assoc. reflexivity. Qed.

  Lemma flush_emit prev g0 lo c a b o :
    loop_ok prev g0 c a -> Inv B I lo c a -> inds a <> [] ->
    (if o =? I then b = bo c + po c + ps a else b = bo c /\ o = po c + ps a) ->
    Flush (emitted prev g0 a ++ [(g0 + blk a, opart c a)]) (g0 + blk a) b o.
  Proof. intros [HF _] HInv Hne Hb. exact (fl_part _ _ (opart c a) b o HF (opart_ok B I lo c a HInv Hne) Hb). Qed.

  Lemma loop_ok_split_blob prev g0 lo c a :
    loop_ok prev g0 c a -> Inv B I lo c a -> inds a <> [] ->
    loop_ok prev g0 (fst (split_blob I (c, a))) (snd (split_blob I (c, a))).
  Proof.
    intros HG HInv Hne. unfold split_blob. destruct (inds a) as [|i0 l0] eqn:E; [congruence|]. rewrite <- E in *.
    cbn [fst snd]. split; [|cbn [inds]; congruence]. cbn [blk bo po]. fold (opart c a). rewrite emitted_snoc.
    apply (flush_emit prev g0 lo c a _ _ HG HInv Hne). rewrite N.eqb_refl. reflexivity.
  Qed.

  Lemma loop_ok_new_block prev g0 lo c a :
    loop_ok prev g0 c a -> Inv B I lo c a ->
    loop_ok prev g0 (fst (split_block (split_blob I (c, a)))) (snd (split_block (split_blob I (c, a)))).
  Proof.
    intros HG HInv. destruct (split_blob_open I (c, a)) as (E1 & E2 & _).
    assert (HF : exists b o, Flush (emitted prev g0 (snd (split_blob I (c, a)))) (g0 + blk (snd (split_blob I (c, a)))) b o).
    { destruct (inds a) as [|i0 l0] eqn:E.
      - unfold split_blob. rewrite E. cbn [snd]. exists (bo c), (po c). apply HG.
      - eexists _, _. apply (loop_ok_split_blob prev g0 lo c a HG HInv). rewrite E. discriminate. }
    destruct HF as (b & o & HF). destruct (split_blob I (c, a)) as [c1 a1]. cbn [fst snd split_block] in *.
    split; [|cbn [inds]; congruence]. cbn [blk bo po]. rewrite E2, N.add_assoc. exact (fl_block _ _ _ _ HF).
  Qed.

  Lemma loop_ok_seal prev g0 lo c a :
    loop_ok prev g0 c a -> Inv B I lo c a ->
    between_ok (emitted prev g0 (snd (seal_blob I (c, a)))) (g0 + blk (snd (seal_blob I (c, a)))) (fst (seal_blob I (c, a))).
  Proof.
    intros HG HInv. unfold between_ok, seal_blob. destruct (inds a) as [|i0 l0] eqn:E; [apply HG|].
    assert (Hne : inds a <> []) by (rewrite E; discriminate). rewrite <- E. fold (opart c a).
    pose proof (proj2 HG Hne) as Hps. pose proof (v_I _ _ _ _ _ HInv) as HIpo.
    destruct (icap I <=? cnt c); cbn [fst snd blk bo po]; rewrite emitted_snoc; apply (flush_emit prev g0 lo c a _ _ HG HInv Hne).
    - rewrite N.eqb_refl. reflexivity.
    - (* the index page is not full and the blob stays open: at least a page behind [po c] is not [I] *)
      destruct (N.eqb_spec (po c + ps a) I); [unfold PAGE in *; lia|]. auto.
  Qed.

  Hypothesis HI : pa I.
  Hypothesis Hcap : 0 < icap I.

  Lemma loop_ok_place prev g0 lo c a e :
    Inv B I lo c a /\ loop_ok prev g0 c a -> eok B I e ->
    exists c' a', place B I 3 (c, a) e = Some (c', a') /\ Inv B I lo c' a' /\ loop_ok prev g0 c' a'.
  Proof.
    intros [HInv HG] He. destruct (place_cases B I HI Hcap lo 0 c a e HInv He) as (st & Hst & HIst & Hroom & Hpl).
    exists (fst (here st e)), (snd (here st e)). split; [exact Hpl|]. split; [exact (here_inv B I lo st e HIst Hroom)|].
    assert (Hst' : loop_ok prev g0 (fst st) (snd st)).
    { destruct Hst as [-> | [[Hfull ->] | ->]]; [exact HG| |exact (loop_ok_new_block prev g0 lo c a HG HInv)].
      apply (loop_ok_split_blob prev g0 lo c a HG HInv). intros E. pose proof (v_cnt0 _ _ _ _ _ HInv E). lia. }
    destruct st as [c1 a1]. exact (loop_ok_here _ _ c1 a1 e Hst' He).
  Qed.

  Lemma split_between_ok prev g c es c' ps' n :
    between_ok prev g c -> CtxInv I c -> Forall (eok B I) es -> split B I c es = Some (c', ps', n) ->
    between_ok (prev ++ map (glob g) ps') (g + n - 1) c'.
  Proof.
    intros HG Hc Hes. unfold split. destruct (icap I <=? cnt c); [discriminate|].
    assert (HG0 : loop_ok prev g c (mkAcc 0 [] [] 0)).
    { split; [|cbn [inds]; congruence]. unfold emitted. cbn [parts blk map]. rewrite app_nil_r, N.add_0_r. exact HG. }
    destruct (place_all_inv B I _ (loop_ok_place prev g _) es c _ (conj (inv_start B I c Hc) HG0) Hes)
      as (c1 & a1 & -> & HI1 & HG1).
    pose proof (loop_ok_seal prev g _ c1 a1 HG1 HI1) as Hs.
    destruct (seal_blob I (c1, a1)) as [c2 a2]. cbn [fst snd] in Hs.
    intros H; inversion H; subst. unfold emitted in Hs.
    replace (g + (blk a2 + 1) - 1) with (g + blk a2) by lia. exact Hs.
  Qed.

  Lemma split_batches_flush bs : forall prev g c c' out,
    between_ok prev g c -> CtxInv I c -> Forall (Forall (eok B I)) bs -> split_batches B I c bs = Some (c', out) ->
    exists g', between_ok (prev ++ globalize g out) g' c'.
  Proof.
    induction bs as [|b bs IH]; intros prev g c c' out HG Hc Hbs; cbn [split_batches].
    - intros H; inversion H; subst. cbn [globalize]. rewrite app_nil_r. exists g. exact HG.
    - inversion Hbs as [|? ? Hb Hbs']; subst.
      destruct (split_ok B I HI Hcap c b Hc Hb) as (c1 & ps1 & n1 & Hs & Hc1 & _).
      rewrite Hs. destruct (split_batches B I c1 bs) as [[c2 rest]|] eqn:Hs2; [|discriminate].
      intros H; inversion H; subst. cbn [globalize]. rewrite app_assoc.
      exact (IH _ _ c1 c' rest (split_between_ok prev g c b c1 ps1 n1 HG Hc Hb Hs) Hc1 Hbs' Hs2).
  Qed.

  (* the second conjunct is what [scan_written] asks *)
  Theorem split_batches_chained bs c out :
    Forall (Forall (eok B I)) bs -> split_batches B I (init_ctx I) bs = Some (c, out) ->
    forall g, wf I (0, []) (block_parts g (globalize 0 out)) /\ Forall (part_ok B I) (block_parts g (globalize 0 out)).
  Proof.
    intros Hbs Hs. destruct (split_batches_flush bs [] 0 (init_ctx I) c out fl_init (ctx_init I HI Hcap) Hbs Hs) as [g' HF].
    exact (proj2 (proj2 (Flush_wf _ _ _ _ HF))).
  Qed.
End Batches.

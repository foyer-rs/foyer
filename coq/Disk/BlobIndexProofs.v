(* C07's round trip (Disk/ScanBytes.v builds on it).  The reader on arbitrary bytes needs only [chunks_length] from here:
   Props/C03.v reads its three outcomes off [bidx_read]. *)
From Coq Require Import List NArith Arith Lia.
From FV Require Import Base.ListX Disk.Codec Disk.CodecProofs Disk.BlobIndex.
Import ListNotations.
Open Scope N_scope.

Lemma bent_write_length e : length (bent_write e) = BENT_LEN.
Proof. unfold bent_write. rewrite !app_length, !encode_be_length. reflexivity. Qed.

Lemma bent_roundtrip e r : bent_ok e -> bent_read (bent_write e ++ r) = e.
Proof.
  intros (H1 & H2 & H3 & H4). unfold bent_read, bent_write. rewrite <- !app_assoc.
  change 20%nat with (8 + (8 + 4))%nat. change 16%nat with (8 + 8)%nat.
  rewrite !skipn_app_more, !skipn_app_exact, !firstn_app_exact by apply encode_be_length.
  rewrite !decode_be_roundtrip by assumption. destruct e; reflexivity.
Qed.

Lemma chunks_length n b : length (chunks n b) = n.
Proof. revert b. induction n as [|n IH]; intros b; cbn [chunks length]; auto. Qed.

Lemma chunks_concat es rest :
  Forall bent_ok es -> chunks (length es) (concat (map bent_write es) ++ rest) = es.
Proof.
  induction 1 as [|e es He Hes IH]; [reflexivity|].
  cbn [length chunks map concat]. rewrite <- app_assoc.
  rewrite firstn_app_exact, skipn_app_exact by apply bent_write_length.
  rewrite <- (app_nil_r (bent_write e)), bent_roundtrip, IH by assumption. reflexivity.
Qed.

Lemma concat_bent_length es : length (concat (map bent_write es)) = (length es * BENT_LEN)%nat.
Proof. induction es as [|e es IH]; [reflexivity|]. cbn [map concat length]. rewrite app_length, bent_write_length, IH. reflexivity. Qed.

Section BlobIndex.
  Variable cksum : bytes -> N.
  Hypothesis cksum_range : forall b, cksum b < 256 ^ 8.

  Theorem bidx_roundtrip es rest :
    Forall bent_ok es -> N.of_nat (length es) < 256 ^ 4 ->
    bidx_read cksum (bidx_page cksum es rest) = BOk es.
  Proof.
    intros Hok Hn. unfold bidx_read, bidx_page.
    rewrite skipn_app_exact, firstn_app_exact by apply encode_be_length.
    rewrite decode_be_roundtrip, N.eqb_refl by apply cksum_range. cbn [negb].
    unfold bidx_body. change BIDX_OFFSET with (8 + 4)%nat.
    rewrite skipn_app_more, skipn_app_exact, firstn_app_exact by apply encode_be_length.
    rewrite decode_be_roundtrip, Nat2N.id, chunks_concat by assumption.
    rewrite !app_length, !encode_be_length, concat_bent_length.
    rewrite !(proj2 (Nat.ltb_ge _ _)) by lia. reflexivity.
  Qed.
End BlobIndex.

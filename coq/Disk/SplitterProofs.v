(* C07, layout. *)
From Coq Require Import List ZArith Lia Sorted.
From FV Require Import Base.ListX Disk.Splitter.
Import ListNotations.
Open Scope N_scope.

Definition pa (x : N) : Prop := exists k, x = k * PAGE.

Lemma pa_0 : pa 0. Proof. exists 0. reflexivity. Qed.
Lemma pa_add a b : pa a -> pa b -> pa (a + b).
Proof. intros [k ->] [j ->]. exists (k + j). lia. Qed.
Lemma pa_align x : pa (align x).
Proof. unfold align. eexists. reflexivity. Qed.
(* the only two facts about [align] that need its division; everywhere else it is opaque to lia *)
Lemma align_ge x : x <= align x.
Proof. unfold align, PAGE. zify. Z.div_mod_to_equations. lia. Qed.
Lemma align_pos x : 1 <= x -> PAGE <= align x.
Proof. unfold align, PAGE. zify. Z.div_mod_to_equations. lia. Qed.

Section Proofs.
  Variable B I : N.
  Hypothesis HI : pa I.      (* with_blob_index_size aligns it up to PAGE (engine.rs:245) *)

  (* what Buffer::push lets through: the length includes the 36-byte header, and aligned > max_entry_size =
     block_size - blob_index_size is refused (flusher.rs:195, buffer.rs:242) *)
  Definition eok (e : ent) : Prop := 1 <= e_len e /\ align (e_len e) <= B - I.

  Definition pend (p : part) : N := p_bbo p + p_pbo p + p_size p.

  (* [b]: the blob's offset in the block *)
  Definition idx_ok (b : N) (i : idx) : Prop :=
    I <= i_off i /\ pa (b + i_off i) /\ b + i_off i + align (i_len i) <= B.

  Fixpoint chain (o : N) (l : list idx) (o' : N) : Prop :=
    match l with
    | [] => o = o'
    | i :: l' => i_off i = o /\ chain (o + align (i_len i)) l' o'
    end.

  Lemma chain_app o l o1 i :
    chain o l o1 -> i_off i = o1 -> chain o (l ++ [i]) (o1 + align (i_len i)).
  Proof.
    revert o. induction l as [|j l IH]; intros o; simpl.
    - intros <- Hi. split; [assumption|reflexivity].
    - intros [A Bc] Hi. split; [assumption|]. apply IH; assumption.
  Qed.

  Definition part_ok (p : part) : Prop :=
    pa (p_bbo p) /\ I <= p_pbo p /\ pend p <= B /\
    Forall (idx_ok (p_bbo p)) (p_inds p) /\ chain (p_pbo p) (p_inds p) (p_pbo p + p_size p) /\ p_inds p <> [].

  (* within a batch every part after the first opens a new blob: [q]'s blob, index page included, starts behind [p]'s data *)
  Definition before (p q : part) : Prop :=
    p_blk p < p_blk q \/ (p_blk p = p_blk q /\ pend p <= p_bbo q).

  (* [place]'s last branch *)
  Definition here (st : sctx * acc) (e : ent) : sctx * acc :=
    (mkCtx (bo (fst st)) (po (fst st)) (cnt (fst st) + 1),
     mkAcc (ps (snd st) + align (e_len e))
           (inds (snd st) ++ [mkIdx (e_hash e) (e_seq e) (po (fst st) + ps (snd st)) (e_len e)])
           (parts (snd st)) (blk (snd st))).
  Definition need (st : sctx * acc) (e : ent) : N := bo (fst st) + po (fst st) + ps (snd st) + align (e_len e).
  Definition room (st : sctx * acc) (e : ent) : Prop := cnt (fst st) < icap I /\ need st e <= B.

  Lemma place_S f st e : place B I (S f) st e =
    if icap I <=? cnt (fst st) then place B I f (split_blob I st) e
    else if B <? need st e then place B I f (split_block (split_blob I st)) e else Some (here st e).
  Proof. destruct st. reflexivity. Qed.
  Lemma place_room f st e : room st e -> place B I (S f) st e = Some (here st e).
  Proof. intros [Hc Hf]. rewrite place_S, (proj2 (N.leb_gt _ _) Hc), (proj2 (N.ltb_ge _ _) Hf). reflexivity. Qed.

  (* split_blob leaves nothing open, so a second split_blob only moves the blob offset, which split_block resets *)
  Lemma split_blob_open st : inds (snd (split_blob I st)) = [] /\ po (fst (split_blob I st)) = I /\ cnt (fst (split_blob I st)) = 0.
  Proof. destruct st as [c a]. unfold split_blob. destruct (inds a) eqn:E; cbn [fst snd inds po cnt]; auto. Qed.
  Lemma split_block_blob st : split_block (split_blob I (split_blob I st)) = split_block (split_blob I st).
  Proof. destruct st as [c a]. unfold split_blob. destruct (inds a) eqn:E; cbn [inds]; rewrite ?E; reflexivity. Qed.

  Section Batch.
  Variable lo : N.      (* where the batch started in its first block: bo + po of the incoming context *)

  (* The 'handle loop's invariant within a batch.  v_cnt0: a full index page has entries in the open part, so
     split_blob on it emits a part (ScanProofs.loop_ok_place) and a batch never hands on a full page ([seal_ok], x_cnt).
     v_water, v_low_*: what [Laid] and [split_ok] export. *)
  Record Inv (c : sctx) (a : acc) : Prop := {
    v_bo : pa (bo c); v_po : pa (po c); v_ps : pa (ps a);
    v_I : I <= po c;
    v_fit : inds a <> [] -> bo c + po c + ps a <= B;
    v_cnt : cnt c <= icap I;
    v_empty : inds a = [] -> ps a = 0;
    v_inds : Forall (idx_ok (bo c)) (inds a);
    v_chain : chain (po c) (inds a) (po c + ps a);
    v_parts : Forall part_ok (parts a);
    v_sorted : StronglySorted before (parts a);
    v_water : forall p, In p (parts a) -> p_blk p < blk a \/ (p_blk p = blk a /\ pend p <= bo c);
    v_cnt0 : inds a = [] -> cnt c < icap I;
    v_low_parts : forall p, In p (parts a) -> p_blk p = 0 -> lo <= p_bbo p + p_pbo p;
    v_low_open : blk a = 0 -> lo <= bo c + po c }.

  (* What [Inv] and [split]'s result say of the parts emitted so far in the batch: [n] is the block being filled and
     [w] an offset in it at or behind the end of every part it holds. *)
  Definition Laid (l : list part) (n w : N) : Prop :=
    Forall part_ok l /\ StronglySorted before l /\
    (forall p, In p l -> p_blk p < n \/ (p_blk p = n /\ pend p <= w)) /\
    (forall p, In p l -> p_blk p = 0 -> lo <= p_bbo p + p_pbo p).

  Lemma Inv_laid c a : Inv c a -> Laid (parts a) (blk a) (bo c).
  Proof. intros H. repeat split; apply H. Qed.

  Lemma laid_le l n w n' w' : Laid l n w -> n < n' \/ (n = n' /\ w <= w') -> Laid l n' w'.
  Proof.
    intros (L1 & L2 & L3 & L4) Hle. repeat split; auto.
    intros p Hp. specialize (L3 p Hp). lia.
  Qed.

  Lemma laid_snoc l n w q :
    Laid l n w -> part_ok q -> p_blk q = n -> w <= p_bbo q -> (n = 0 -> lo <= p_bbo q + p_pbo q) ->
    Laid (l ++ [q]) n (pend q).
  Proof.
    intros (L1 & L2 & L3 & L4) Hq Hn Hw Hlo. unfold Laid. rewrite Forall_app. repeat split; auto.
    - apply StronglySorted_snoc; [assumption|]. intros p Hp. unfold before. specialize (L3 p Hp). lia.
    - intros p [Hp| ->]%In_snoc; [|lia].
      specialize (L3 p Hp). unfold pend at 2. lia.
    - intros p [Hp| ->]%In_snoc; [auto|lia].
  Qed.

  Definition opart (c : sctx) (a : acc) : part := mkPart (blk a) (bo c) (po c) (ps a) (inds a) (cnt c).

  Lemma opart_ok c a : Inv c a -> inds a <> [] -> part_ok (opart c a).
  Proof.
    intros H Hne. pose proof (v_fit c a H Hne). repeat split; cbn [opart p_bbo p_pbo p_size p_inds pend]; auto; apply H.
  Qed.

  Lemma opart_laid c a :
    Inv c a -> inds a <> [] -> Laid (parts a ++ [opart c a]) (blk a) (bo c + po c + ps a).
  Proof.
    intros H Hne. apply (laid_snoc _ _ (bo c) (opart c a) (Inv_laid c a H)); cbn [opart p_blk p_bbo p_pbo]; auto using opart_ok.
    - lia.
    - apply H.
  Qed.

  Lemma split_block_inv st :
    Inv (fst st) (snd st) -> inds (snd st) = [] -> Inv (fst (split_block st)) (snd (split_block st)).
  Proof.
    destruct st as [c a]. cbn [fst snd]. intros H E. destruct (laid_le _ _ _ (blk a + 1) 0 (Inv_laid c a H)) as (L1 & L2 & L3 & L4); [lia|].
    (* a new block, entered with nothing open ([E]), and every emitted part in an earlier one (L3) *)
    constructor; cbn [split_block fst snd bo po cnt ps inds parts blk]; auto using pa_0; try apply H; try lia.
    - (* v_fit *) congruence.
    - (* v_inds *) rewrite E. constructor.
  Qed.

  Lemma here_inv st e :
    Inv (fst st) (snd st) -> room st e -> Inv (fst (here st e)) (snd (here st e)).
  Proof.
    destruct st as [c a]. cbn [fst snd]. intros H [Hc Hf]. unfold need in Hf. cbn [fst snd] in Hc, Hf.
    pose proof (v_I c a H) as HIpo.
    constructor; cbn [here fst snd bo po cnt ps inds parts blk]; try apply H.
    - (* v_ps *) apply pa_add; [apply H|apply pa_align].
    - (* v_fit *) intros _. lia.
    - (* v_cnt *) lia.
    - (* v_empty *) intros Habs. destruct (inds a); discriminate.
    - (* v_inds: the new entry *) apply Forall_app. split; [apply H|]. constructor; [|constructor].
      unfold idx_ok; cbn [i_off i_len]. split; [lia|]. split; [|lia].
      rewrite N.add_assoc. apply pa_add; [apply pa_add|]; apply H.
    - (* v_chain *) rewrite N.add_assoc. apply chain_app; [apply H|reflexivity].
    - (* v_cnt0 *) intros Habs. destruct (inds a); discriminate.
  Qed.

  End Batch.

  Record CtxInv (c : sctx) : Prop := {
    x_bo : pa (bo c); x_po : pa (po c); x_I : I <= po c; x_cnt : cnt c < icap I }.

  Lemma inv_start c : CtxInv c -> Inv (bo c + po c) c (mkAcc 0 [] [] 0).
  Proof.
    intros [X1 X2 X3 X4].
    (* the trailing [constructor]: [Forall] and [StronglySorted] of [] *)
    constructor; cbn [ps inds parts blk chain]; auto using pa_0; try lia; try congruence; try (now intros p []); constructor.
  Qed.

  (* Declared where it is first needed (split_blob leaves an empty index page, which v_cnt0 wants not full): [lia] makes
     every arithmetic hypothesis in sight a premise of what it proves. *)
  Hypothesis Hcap : 0 < icap I.

  Lemma ctx_init : CtxInv (init_ctx I).
  Proof. constructor; cbn [init_ctx bo po cnt]; [apply pa_0|exact HI|apply N.le_refl|exact Hcap]. Qed.

  Lemma split_blob_inv lo st :
    Inv lo (fst st) (snd st) -> Inv lo (fst (split_blob I st)) (snd (split_blob I st)).
  Proof.
    destruct st as [c a]. cbn [fst snd]. intros H. pose proof (Inv_laid lo c a H) as HL. unfold split_blob. destruct (inds a) as [|i l] eqn:E.
    - pose proof (v_empty lo c a H E) as Hps. pose proof (v_low_open lo c a H) as Hlo.
      destruct (laid_le lo _ _ _ (blk a) (bo c + po c) HL) as (L1 & L2 & L3 & L4); [lia|].
      (* nothing open: only the cursor moves *)
      constructor; cbn [fst snd bo po cnt]; rewrite ?E, ?Hps; cbn [chain]; auto using pa_0; try apply H; try lia.
      + (* v_bo *) apply pa_add; apply H.
      + (* v_fit *) congruence.
    - assert (Hne : inds a <> []) by (rewrite E; discriminate).
      destruct (opart_laid lo c a H Hne) as (L1 & L2 & L3 & L4). unfold opart in *. rewrite E in *.
      pose proof (v_low_open lo c a H) as Hlo.
      (* the open part is emitted ([opart_laid]: L1 - L4) and nothing is open behind it; left is v_bo *)
      constructor; cbn [fst snd bo po cnt ps inds parts blk chain]; auto using pa_0; try lia; try congruence.
      apply pa_add; [apply pa_add|]; apply H.
  Qed.

  (* The 'handle loop: the entry goes into the open part as it is, or after the blob was split because its index is
     full, or into a new block; the third round is needed when the index is full and the entry does not fit behind the
     new blob's index page either.  More fuel changes nothing. *)
  Lemma place_cases lo f c a e :
    Inv lo c a -> eok e ->
    exists st, (st = (c, a) \/ (icap I <= cnt c /\ st = split_blob I (c, a)) \/ st = split_block (split_blob I (c, a))) /\
      Inv lo (fst st) (snd st) /\ room st e /\ place B I (S (S (S f))) (c, a) e = Some (here st e).
  Proof.
    intros H [He1 He2]. set (st := (c, a)).
    destruct (split_blob_open st) as (E1 & E2 & E3).
    pose proof (split_blob_inv lo st H) as H1. pose proof (split_block_inv lo _ H1 E1) as H2.
    assert (Hnew : room (split_block (split_blob I st)) e).
    { pose proof (v_empty lo _ _ H1 E1) as Hps.
      (* an admissible entry takes at least a page of the B - I behind an index page; in particular I < B *)
      pose proof (align_pos _ He1) as Hpg. unfold PAGE in Hpg.
      destruct (split_blob I st) as [c1 a1]. unfold room, need. cbn [split_block fst snd bo po cnt ps] in *. lia. }
    rewrite place_S. destruct (N.leb_spec (icap I) (cnt (fst st))) as [Hfull|Hroom].
    - change (icap I <= cnt c) in Hfull. rewrite (place_S (S f) (split_blob I st)), E3, (proj2 (N.leb_gt _ _) Hcap).
      destruct (N.ltb_spec B (need (split_blob I st) e)) as [Hover|Hfits].
      + rewrite split_block_blob. exists (split_block (split_blob I st)). auto using place_room.
      + assert (Hr : room (split_blob I st) e) by (split; [rewrite E3; exact Hcap|exact Hfits]).
        exists (split_blob I st). auto.
    - destruct (N.ltb_spec B (need st e)) as [Hover|Hfits].
      + exists (split_block (split_blob I st)). auto using place_room.
      + assert (Hr : room st e) by (split; assumption). exists st. auto.
  Qed.

  Lemma place_ok lo f c a e :
    Inv lo c a -> eok e -> exists c' a', place B I (S (S (S f))) (c, a) e = Some (c', a') /\ Inv lo c' a'.
  Proof.
    intros H He. destruct (place_cases lo f c a e H He) as (st & _ & Hst & Hroom & Hpl).
    exists (fst (here st e)), (snd (here st e)). split; [exact Hpl|exact (here_inv lo st e Hst Hroom)].
  Qed.

  (* Any invariant [J] of the 'handle loop is one of the batch loop: [Inv] here, [Inv] together with ScanProofs.loop_ok
     in ScanProofs.split_between_ok *)
  Lemma place_all_inv (J : sctx -> acc -> Prop) :
    (forall c a e, J c a -> eok e -> exists c' a', place B I 3 (c, a) e = Some (c', a') /\ J c' a') ->
    forall es c a, J c a -> Forall eok es -> exists c' a', place_all B I (c, a) es = Some (c', a') /\ J c' a'.
  Proof.
    intros HJ. induction es as [|e es IH]; intros c a H0 Hes; cbn [place_all].
    - eexists _, _. split; [reflexivity|assumption].
    - inversion Hes as [|? ? He Hes']; subst.
      destruct (HJ c a e H0 He) as (c1 & a1 & -> & H1). apply IH; assumption.
  Qed.

  Lemma seal_ok lo c a :
    Inv lo c a ->
    let st := seal_blob I (c, a) in
    CtxInv (fst st) /\ Laid lo (parts (snd st)) (blk (snd st)) (bo (fst st) + po (fst st)) /\
    (blk (snd st) = 0 -> lo <= bo (fst st) + po (fst st)).
  Proof.
    intros H. pose proof (v_low_open lo c a H) as Hlo. cbn zeta. unfold seal_blob.
    destruct (inds a) as [|i l] eqn:E.
    - cbn [fst snd]. split; [constructor; apply H; exact E|]. split; [|exact Hlo].
      apply (laid_le lo _ _ _ _ _ (Inv_laid lo c a H)). lia.
    - assert (Hne : inds a <> []) by (rewrite E; discriminate).
      pose proof (opart_laid lo c a H Hne) as HL. unfold opart in HL. rewrite E in HL.
      pose proof (v_I lo c a H) as HIpo.
      (* sealed full (a new blob behind it) or not (the blob stays open): the same three checks *)
      destruct (N.leb_spec (icap I) (cnt c)) as [Hfull|Hroom]; cbn [fst snd bo po cnt parts blk].
      all: split; [constructor; cbn [bo po cnt]; auto using pa_add, (v_bo lo c a H), (v_po lo c a H), (v_ps lo c a H); lia|].
      all: split; [apply (laid_le lo _ _ _ _ _ HL); lia|intros Hb; specialize (Hlo Hb); lia].
  Qed.

  Theorem split_ok c es :
    CtxInv c -> Forall eok es ->
    exists c' ps' n, split B I c es = Some (c', ps', n) /\ CtxInv c' /\
      Forall part_ok ps' /\ StronglySorted before ps' /\
      (forall p, In p ps' -> p_blk p = 0 -> bo c + po c <= p_bbo p + p_pbo p) /\
      (forall p, In p ps' -> p_blk p + 1 = n -> pend p <= bo c' + po c') /\
      (n = 1 -> bo c + po c <= bo c' + po c').
  Proof.
    intros Hc Hes. unfold split. rewrite (proj2 (N.leb_gt _ _) (x_cnt c Hc)).
    destruct (place_all_inv _ (place_ok _ 0) es c _ (inv_start c Hc) Hes) as (c1 & a1 & -> & H1).
    destruct (seal_ok _ c1 a1 H1) as (Hc' & (L1 & L2 & L3 & L4) & Hlo).
    destruct (seal_blob I (c1, a1)) as [c' a']. cbn [fst snd] in *.
    exists c', (parts a'), (blk a' + 1). split; [reflexivity|]. split; [exact Hc'|]. repeat split; auto.
    - intros p Hp Hn. specialize (L3 p Hp). lia.
    - intros Hn. apply Hlo. lia.
  Qed.

  Lemma split_batches_ok : forall bs c, CtxInv c -> Forall (Forall eok) bs ->
    exists c' out, split_batches B I c bs = Some (c', out) /\ CtxInv c' /\
      Forall (fun r => Forall part_ok (fst r) /\ StronglySorted before (fst r)) out.
  Proof.
    induction bs as [|b bs IH]; intros c Hc Hbs; cbn [split_batches].
    - eexists _, _. split; [reflexivity|]. split; [assumption|constructor].
    - inversion Hbs as [|? ? Hb Hbs']; subst.
      destruct (split_ok c b Hc Hb) as (c1 & ps1 & n1 & -> & Hc1 & P1 & P2 & _).
      destruct (IH c1 Hc1 Hbs') as (c2 & out & -> & Hc2 & Hout).
      eexists _, _. split; [reflexivity|]. split; [assumption|]. constructor; [split; assumption|assumption].
  Qed.
End Proofs.

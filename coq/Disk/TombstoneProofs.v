From Coq Require Import List NArith Arith Lia.
From FV Require Import Base.ListX Disk.Tombstone.
Import ListNotations.
Open Scope N_scope.

(* all that open() needs of the sequences: none is 0 (0 marks an empty slot).  Their ORDER in the log is arbitrary:
   with several flushers the log is written batch by batch, not in sequence order *)
Definition nonzero (ts : list tomb) : Prop := Forall (fun t => t_seq t <> 0) ts.

(* the device after appends into a fresh log; slot 0 stays empty because [topen] of an empty log resumes at tail 1 *)
Definition layout (ts : list tomb) (pad : nat) : list tomb := empty_tomb :: ts ++ repeat empty_tomb pad.

Lemma argmax_occupied l : forall i bs bl,
  snd (argmax_from i l bs bl) = bl \/
  exists k, snd (argmax_from i l bs bl) = i + N.of_nat k /\ t_seq (nth k l empty_tomb) <> 0.
Proof.
  induction l as [|t l IH]; intros i bs bl; cbn [argmax_from]; [left; reflexivity|].
  assert (Hl : forall bs' bl', snd (argmax_from (i + 1) l bs' bl') = bl' \/
            exists k, snd (argmax_from (i + 1) l bs' bl') = i + N.of_nat k /\ t_seq (nth k (t :: l) empty_tomb) <> 0).
  { intros bs' bl'. destruct (IH (i + 1) bs' bl') as [E|(k & E & Hk)]; [left; exact E|].
    right. exists (S k). split; [lia|exact Hk]. }
  destruct (N.eqb_spec (t_seq t) 0) as [|Hnz]; [apply Hl|]. destruct (bs <=? t_seq t); [|apply Hl].
  right. destruct (Hl (t_seq t) i) as [E|R]; [|exact R]. exists 0%nat. split; [lia|exact Hnz].
Qed.

Lemma layout_length ts pad : length (layout ts pad) = S (length ts + pad).
Proof. unfold layout. cbn [length]. rewrite app_length, repeat_length. reflexivity. Qed.

Lemma layout_slot ts pad i : nonzero ts ->
  t_seq (nth i (layout ts pad) empty_tomb) = 0 <-> (i = 0 \/ length ts < i)%nat.
Proof.
  intros Hnz. unfold layout. destruct i as [|j]; cbn [nth]; [cbn; tauto|].
  destruct (Nat.lt_ge_cases j (length ts)) as [Hlt|Hge].
  - rewrite app_nth1 by assumption. split; [|lia]. intros E. exfalso. revert E.
    apply (proj1 (Forall_nth _ _) Hnz). assumption.
  - rewrite app_nth2, nth_repeat by assumption. cbn. split; [lia|reflexivity].
Qed.

(* n = length ts: slots p+1..n are occupied, the next one (n+1, or 0 when the log is exactly full) is empty *)
Lemma skip_layout total ts pad : nonzero ts -> N.of_nat (length (layout ts pad)) = total ->
  forall k fuel p, (p + k = length ts)%nat -> (k < fuel)%nat ->
  skip_occupied fuel total (layout ts pad) (N.of_nat p) = Some (N.of_nat (length ts)).
Proof.
  intros Hnz Hlen. rewrite layout_length in Hlen.
  induction k as [|k IH]; intros [|fuel] p Hp Hf; try lia; cbn [skip_occupied];
    destruct (N.eqb_spec (t_seq (nth (N.to_nat ((N.of_nat p + 1) mod total)) (layout ts pad) empty_tomb)) 0) as [E|E];
    rewrite layout_slot in E by assumption.
  - (* p = n and the next slot is empty: stop *) f_equal. lia.
  - (* p = n: the next slot, n+1 or 0 when the log is full, cannot be occupied *)
    exfalso. apply E. destruct (N.eq_dec (N.of_nat p + 1) total) as [T|T].
    + rewrite T, N.mod_same by lia. left; reflexivity.
    + rewrite N.mod_small by lia. right; lia.
  - (* p < n: slot p+1 cannot be empty *) rewrite N.mod_small in E by lia. lia.
  - (* p < n and slot p+1 is occupied: go on from there *)
    replace (N.of_nat p + 1) with (N.of_nat (S p)) by lia. apply IH; lia.
Qed.

Lemma recovered_layout ts pad : nonzero ts -> recovered (layout ts pad) = ts.
Proof.
  intros Hnz. unfold recovered, layout. cbn [filter empty_tomb t_seq]. rewrite N.eqb_refl. cbn [negb]. rewrite filter_app.
  rewrite (filter_none _ (repeat _ pad)), app_nil_r by (intros t ->%repeat_spec; reflexivity).
  induction Hnz as [|t l Ht _ IH]; [reflexivity|]. cbn [filter].
  apply N.eqb_neq in Ht. rewrite Ht, IH. reflexivity.
Qed.

Lemma topen_layout pages ts pad : nonzero ts ->
  N.of_nat (length (layout ts pad)) = pages * SLOTS_PER_PAGE ->
  topen false pages (layout ts pad) = (mkTlog pages (layout ts pad) (N.of_nat (length ts) + 1), ts).
Proof.
  intros Hnz Hlen. unfold topen. rewrite recovered_layout by assumption.
  (* the newest tombstone sits in an occupied slot, i.e. in 1..n ([layout_slot]), or there is none: slot 0 *)
  pose proof (argmax_occupied (layout ts pad) 0 0 0) as Hr.
  destruct (argmax_from 0 (layout ts pad) 0 0) as [bs latest]. cbn [snd] in Hr.
  assert (Hle : latest <= N.of_nat (length ts)).
  { destruct Hr as [->|(k & -> & Hk)]; [lia|]. rewrite layout_slot in Hk by assumption. lia. }
  rewrite <- (N2Nat.id latest).
  rewrite (skip_layout _ ts pad Hnz Hlen (length ts - N.to_nat latest)); [reflexivity|lia|].
  rewrite <- Hlen, layout_length. lia.
Qed.

Lemma set_nth_app {A} (a : list A) x y b : set_nth (length a) x (a ++ y :: b) = a ++ x :: b.
Proof. induction a as [|z a IH]; simpl; [reflexivity|]. rewrite IH. reflexivity. Qed.

Lemma slot_index_small pages s : s < pages * SLOTS_PER_PAGE -> slot_index pages s = s.
Proof.
  intros H. unfold slot_index, SLOTS_PER_PAGE in *.
  assert (Hd : s / 256 < pages) by (apply N.div_lt_upper_bound; lia).
  rewrite (N.mod_small _ _ Hd). pose proof (N.div_mod s 256 ltac:(discriminate)). lia.
Qed.

Lemma tappend1_layout pages ts pad t : N.of_nat (length ts) + 1 < pages * SLOTS_PER_PAGE ->
  tappend1 (mkTlog pages (layout ts (S pad)) (N.of_nat (length ts) + 1)) t =
  mkTlog pages (layout (ts ++ [t]) pad) (N.of_nat (length (ts ++ [t])) + 1).
Proof.
  intros H. unfold tappend1. cbn [l_pages l_tail l_slots]. rewrite slot_index_small by assumption.
  replace (N.to_nat (N.of_nat (length ts) + 1)) with (S (length ts)) by lia.
  unfold layout. cbn [set_nth repeat]. rewrite set_nth_app, <- app_assoc, app_length, Nat2N.inj_add. reflexivity.
Qed.

Lemma tappend_layout pages : forall ts' ts pad,
  N.of_nat (length (layout ts pad)) = pages * SLOTS_PER_PAGE ->
  (length ts' <= pad)%nat ->
  tappend (mkTlog pages (layout ts pad) (N.of_nat (length ts) + 1)) ts' =
  mkTlog pages (layout (ts ++ ts') (pad - length ts')) (N.of_nat (length (ts ++ ts')) + 1).
Proof.
  unfold tappend. induction ts' as [|t ts' IH]; intros ts pad Hlen Hpad; cbn [length fold_left] in *.
  - rewrite app_nil_r, Nat.sub_0_r. reflexivity.
  - destruct pad as [|pad]; [lia|]. rewrite layout_length in Hlen. rewrite tappend1_layout by lia.
    rewrite (IH (ts ++ [t]) pad), <- app_assoc by (rewrite ?layout_length, ?app_length; cbn [length]; lia). reflexivity.
Qed.

Lemma sessions_layout pages : forall batches ts pad,
  nonzero (ts ++ concat batches) ->
  N.of_nat (length (layout ts pad)) = pages * SLOTS_PER_PAGE ->
  (length (concat batches) <= pad)%nat ->
  sessions false pages (layout ts pad) batches =
  layout (ts ++ concat batches) (pad - length (concat batches)).
Proof.
  induction batches as [|b bs IH]; intros ts pad Hnz Hlen Hpad; cbn [sessions concat] in *.
  - rewrite app_nil_r, Nat.sub_0_r. reflexivity.
  - rewrite app_length in Hpad.
    rewrite topen_layout by (try apply Forall_app in Hnz; tauto).
    rewrite tappend_layout by (assumption || lia). cbn [l_slots]. rewrite layout_length in Hlen.
    rewrite app_assoc in Hnz |- *. rewrite IH; try assumption.
    + rewrite app_length. f_equal. lia.
    + rewrite layout_length, app_length. lia.
    + lia.
Qed.

Theorem all_tombstones_survive pages batches :
  nonzero (concat batches) ->
  N.of_nat (length (concat batches)) + 1 <= pages * SLOTS_PER_PAGE ->
  let dev := sessions false pages (fresh_device pages) batches in
  snd (topen false pages dev) = concat batches /\
  l_tail (fst (topen false pages dev)) = N.of_nat (length (concat batches)) + 1.
Proof.
  intros Hnz Hcap. cbv zeta.
  replace (fresh_device pages) with (layout [] (N.to_nat (pages * SLOTS_PER_PAGE) - 1)).
  2:{ unfold fresh_device, layout. destruct (N.to_nat (pages * SLOTS_PER_PAGE)) eqn:E; [lia|]. cbn. rewrite Nat.sub_0_r. reflexivity. }
  rewrite sessions_layout, topen_layout; rewrite ?layout_length; cbn [app length snd fst l_tail]; auto; lia.
Qed.

(* sequences as one flusher appends them; only c10_recovered_in_sequence_order asks for it, the log needs [nonzero] alone.
   [increasing_app], [_weaken], [_last_ge] cut such a list at a session boundary; nothing cites them. *)
Fixpoint increasing (lo : N) (ts : list tomb) : Prop :=
  match ts with
  | [] => True
  | t :: ts' => lo < t_seq t /\ increasing (t_seq t) ts'
  end.

Lemma increasing_nonzero lo ts : increasing lo ts -> nonzero ts.
Proof.
  revert lo. induction ts as [|t ts IH]; intros lo H; [constructor|]. destruct H as [A B].
  constructor; [lia|exact (IH _ B)].
Qed.

Lemma last_cons {A} (x : A) l d : last (x :: l) d = last l x.
Proof.
  revert x d. induction l as [|y l IH]; intros x d; [reflexivity|].
  change (last (y :: l) d = last (y :: l) x). rewrite !IH. reflexivity.
Qed.

Lemma increasing_app lo a b :
  increasing lo (a ++ b) <-> increasing lo a /\ increasing (last (map t_seq a) lo) b.
Proof.
  revert lo. induction a as [|t a IH]; intros lo; [simpl; tauto|].
  cbn [app increasing map]. rewrite last_cons. rewrite IH. tauto.
Qed.

Lemma increasing_weaken lo lo' ts : lo' <= lo -> increasing lo ts -> increasing lo' ts.
Proof. destruct ts as [|t ts]; simpl; [tauto|]. intros H [A B]. split; [lia|assumption]. Qed.

Lemma increasing_last_ge lo ts : increasing lo ts -> lo <= last (map t_seq ts) lo.
Proof.
  revert lo. induction ts as [|t ts IH]; intros lo; [simpl; lia|].
  cbn [increasing map]. intros [A B]. specialize (IH _ B). rewrite last_cons. lia.
Qed.

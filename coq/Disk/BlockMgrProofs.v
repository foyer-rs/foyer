From Coq Require Import List NArith Bool Arith Lia Permutation.
From FV Require Import Base.ListX Disk.BlockMgr.
Import ListNotations.
Open Scope N_scope.

Lemma mem_n_in x l : mem_n x l = true <-> In x l.
Proof.
  induction l as [|y l IH]; cbn; [split; [discriminate|tauto]|].
  destruct (N.eqb_spec x y); [subst; tauto|]. rewrite IH. split; [auto|intros [E|H]; [congruence|auto]].
Qed.

(* Where a block sits is settled by counting: every event takes a block out of one of the four lists and puts it at the
   end of another, so the number of times any block occurs in [all_blocks] never changes. *)
Local Notation cnt := (count_occ N.eq_dec).

Lemma cnt_cons z l y : cnt (z :: l) y = (cnt [z] y + cnt l y)%nat.
Proof. apply (count_occ_app N.eq_dec [z]). Qed.

Lemma cnt_remove x l y : In x l -> cnt l y = (cnt [x] y + cnt (remove_n x l) y)%nat.
Proof.
  induction l as [|z l IH]; cbn [remove_n In]; [tauto|]. intros Hin.
  destruct (N.eqb_spec x z) as [->|Hne]; [apply cnt_cons|].
  destruct Hin as [E|Hin]; [congruence|]. rewrite (cnt_cons z l), (cnt_cons z (remove_n x l)), (IH Hin). lia.
Qed.

Lemma cnt_reclaim c ch s y : cnt (all_blocks (reclaim_if_needed c ch s)) y = cnt (all_blocks s) y.
Proof.
  unfold reclaim_if_needed. destruct (_ && _); [|reflexivity].
  destruct (evictable s) as [|b rest] eqn:He; [reflexivity|].
  set (p := if fifo c then b else if mem_n ch (b :: rest) then ch else b).
  assert (Hin : In p (b :: rest)).
  { subst p. destruct (fifo c); [left; auto|]. destruct (mem_n ch (b :: rest)) eqn:Hm; [apply mem_n_in; auto|left; auto]. }
  unfold all_blocks; cbn [clean evictable writing reclaiming]. rewrite He, !count_occ_app, (cnt_remove p _ y Hin). lia.
Qed.

Lemma cnt_step c s e y : cnt (all_blocks (bstep c s e)) y = cnt (all_blocks s) y.
Proof.
  destruct e as [f ch|b ch|b ch]; cbn [bstep].
  - (* BGet *) destruct (clean s) as [|b rest] eqn:Hc; rewrite cnt_reclaim; unfold all_blocks; cbn [clean evictable writing reclaiming];
      rewrite ?Hc; [reflexivity|]. rewrite !count_occ_app, (cnt_cons b rest). lia.
  - (* BFinish *) destruct (mem_n b (writing s)) eqn:Hm; [|reflexivity]. apply mem_n_in in Hm.
    rewrite cnt_reclaim. unfold all_blocks; cbn [clean evictable writing reclaiming].
    rewrite !count_occ_app, (cnt_remove b (writing s) y Hm). lia.
  - (* BReclaimDone *) destruct (mem_n b (reclaiming s)) eqn:Hm; [|reflexivity]. apply mem_n_in in Hm.
    destruct (waiters s); rewrite cnt_reclaim; unfold all_blocks; cbn [clean evictable writing reclaiming];
      rewrite !count_occ_app, (cnt_remove b (reclaiming s) y Hm); lia.
Qed.

Lemma perm_run c l s : Permutation (all_blocks (brun c s l)) (all_blocks s).
Proof.
  apply (fold_left_ind (bstep c) (fun s' => Permutation (all_blocks s') (all_blocks s))); [|reflexivity].
  intros s' e H. rewrite <- H. apply (Permutation_count_occ N.eq_dec), cnt_step.
Qed.

Lemma writing_exclusive s b :
  NoDup (all_blocks s) -> In b (writing s) ->
  ~ In b (clean s) /\ ~ In b (evictable s) /\ ~ In b (reclaiming s) /\ NoDup (writing s).
Proof.
  intros Hn Hw.
  assert (K : forall x, (cnt (clean s) x + cnt (evictable s) x + cnt (writing s) x + cnt (reclaiming s) x <= 1)%nat).
  { intros x. apply (NoDup_count_occ N.eq_dec) with (x := x) in Hn. unfold all_blocks in Hn. rewrite !count_occ_app in Hn. lia. }
  apply (count_occ_In N.eq_dec) in Hw. pose proof (K b).
  repeat split; try (apply (count_occ_not_In N.eq_dec); lia).
  apply (NoDup_count_occ N.eq_dec). intros x. specialize (K x). lia.
Qed.

(* What keeps waiting writers served: a writer waits only while no block is clean, and (threshold, concurrency >= 1)
   reclaim_if_needed leaves nothing evictable while no block is clean or being reclaimed. *)
Record BInv (s : bst) : Prop := mkBInv {
  b_waiters : waiters s <> [] -> clean s = [];
  b_evictable : clean s = [] -> reclaiming s = [] -> evictable s = [] }.

(* the last two: c09_reclaim_done_serves_waiter *)
Lemma reclaim_fields c ch s :
  clean (reclaim_if_needed c ch s) = clean s /\ waiters (reclaim_if_needed c ch s) = waiters s /\
  writing (reclaim_if_needed c ch s) = writing s /\ grants (reclaim_if_needed c ch s) = grants s.
Proof.
  unfold reclaim_if_needed.
  destruct (Nat.ltb (length (clean s)) (threshold c) && Nat.ltb (length (reclaiming s)) (concurrency c)); auto.
  destruct (evictable s); auto.
Qed.

Lemma binv_reclaim c ch s :
  (1 <= threshold c)%nat -> (1 <= concurrency c)%nat -> (waiters s <> [] -> clean s = []) -> BInv (reclaim_if_needed c ch s).
Proof.
  intros Ht Hc HW. destruct (reclaim_fields c ch s) as [E1 [E2 _]]. constructor.
  - rewrite E1, E2. exact HW.
  - rewrite E1. unfold reclaim_if_needed.
    destruct (Nat.ltb (length (clean s)) (threshold c) && Nat.ltb (length (reclaiming s)) (concurrency c)) eqn:Hcond.
    + destruct (evictable s) as [|b rest] eqn:He; [intros; exact He|]. cbn. intros _ [_ [=]]%app_eq_nil.
    + intros Hcl Hr. exfalso. rewrite Hcl, Hr in Hcond. cbn [length] in Hcond.
      destruct (Nat.ltb_spec 0 (threshold c)); [|lia]. destruct (Nat.ltb_spec 0 (concurrency c)); [discriminate|lia].
Qed.

Lemma binv_step c s e : (1 <= threshold c)%nat -> (1 <= concurrency c)%nat -> BInv s -> BInv (bstep c s e).
Proof.
  intros Ht Hc [W1 W2]. destruct e as [f ch|b ch|b ch]; cbn [bstep].
  - (* BGet *) destruct (clean s) as [|b rest] eqn:Hcl; apply binv_reclaim; auto; cbn [waiters clean].
    intros Hw. specialize (W1 Hw). discriminate.
  - (* BFinish *) destruct (mem_n b (writing s)); [|constructor; auto]. apply binv_reclaim; auto.
  - (* BReclaimDone *) destruct (mem_n b (reclaiming s)); [|constructor; auto].
    destruct (waiters s) as [|f ws] eqn:Hw; apply binv_reclaim; auto; cbn [waiters clean]; [tauto|].
    intros _. apply W1. discriminate.
Qed.

Lemma binv_init blocks : BInv (init_b blocks).
Proof. constructor; cbn; [tauto|auto]. Qed.

Lemma binv_run c l s : (1 <= threshold c)%nat -> (1 <= concurrency c)%nat -> BInv s -> BInv (brun c s l).
Proof. intros Ht Hc. apply fold_left_ind. intros; now apply binv_step. Qed.

Definition FifoInv (s : bst) : Prop := flog s = rlog s ++ evictable s.

Lemma fifo_reclaim c ch s : fifo c = true -> FifoInv s -> FifoInv (reclaim_if_needed c ch s).
Proof.
  unfold FifoInv. intros Hf H0. unfold reclaim_if_needed.
  destruct (Nat.ltb (length (clean s)) (threshold c) && Nat.ltb (length (reclaiming s)) (concurrency c)); auto.
  destruct (evictable s) as [|b rest] eqn:He; [rewrite He; exact H0|]. rewrite Hf. cbn [flog rlog evictable remove_n].
  rewrite N.eqb_refl, H0, <- app_assoc. reflexivity.
Qed.

Lemma fifo_step c s e : fifo c = true -> FifoInv s -> FifoInv (bstep c s e).
Proof.
  intros Hf Hinv. destruct e as [f ch|b ch|b ch]; cbn [bstep].
  - (* BGet *) destruct (clean s); apply fifo_reclaim; assumption.
  - (* BFinish *) destruct (mem_n b (writing s)); auto. apply fifo_reclaim; [exact Hf|].
    unfold FifoInv in *. cbn [flog rlog evictable]. rewrite Hinv, app_assoc. reflexivity.
  - (* BReclaimDone *) destruct (mem_n b (reclaiming s)); auto. destruct (waiters s); apply fifo_reclaim; assumption.
Qed.

Lemma fifo_run c l s : fifo c = true -> FifoInv s -> FifoInv (brun c s l).
Proof. intros Hf. apply fold_left_ind. intros; now apply fifo_step. Qed.

(* C08; [read_header_sound] and [deserialize_inv], on arbitrary bytes, are C03's. *)
From Coq Require Import List NArith Arith Lia.
From FV Require Import Base.ListX Disk.Codec.
Import ListNotations.
Open Scope N_scope.

Lemma encode_le_length w x : length (encode_le w x) = w.
Proof. revert x; induction w as [|w IH]; intros x; cbn [encode_le length]; [|rewrite IH]; reflexivity. Qed.

(* the model's bytes are unbounded numbers: those of an encoding are below 256 *)
Lemma encode_le_bytes w x : Forall (fun b => b < 256) (encode_le w x).
Proof.
  revert x; induction w as [|w IH]; intros x; constructor; [|apply IH].
  apply N.mod_lt. discriminate.
Qed.

Lemma decode_le_roundtrip w : forall x, x < 256 ^ N.of_nat w -> decode_le (encode_le w x) = x.
Proof.
  induction w as [|w IH]; intros x Hx; cbn [encode_le decode_le].
  - apply N.lt_1_r in Hx. auto.
  - rewrite Nat2N.inj_succ, N.pow_succ_r' in Hx.
    rewrite IH by (apply N.div_lt_upper_bound; [discriminate|assumption]).
    symmetry. rewrite N.add_comm. apply N.div_mod. discriminate.
Qed.

Lemma encode_be_length w x : length (encode_be w x) = w.
Proof. unfold encode_be. rewrite rev_length. apply encode_le_length. Qed.

Lemma decode_be_roundtrip w x : x < 256 ^ N.of_nat w -> decode_be (encode_be w x) = x.
Proof. unfold decode_be, encode_be. rewrite rev_involutive. apply decode_le_roundtrip. Qed.

Lemma read_exact_app n a r : length a = n -> read_exact n (a ++ r) = Some (a, r).
Proof.
  intros <-. unfold read_exact. rewrite firstn_app_exact, skipn_app_exact by reflexivity.
  rewrite app_length, (proj2 (Nat.leb_le _ _)) by lia. reflexivity.
Qed.

Lemma read_exact_inv n r b r' : read_exact n r = Some (b, r') -> r = b ++ r' /\ length b = n.
Proof.
  unfold read_exact. destruct (Nat.leb_spec n (length r)); intros [= <- <-].
  split; [symmetry; apply firstn_skipn|apply firstn_length_le; assumption].
Qed.

Lemma read_exact_short n r : (length r < n)%nat -> read_exact n r = None.
Proof. intros H. unfold read_exact. destruct (Nat.leb_spec n (length r)); [lia|reflexivity]. Qed.

Lemma decode_int_roundtrip w x r :
  x < 256 ^ N.of_nat w -> decode_int w (encode_le w x ++ r) = Some (x, r).
Proof.
  intros Hx. unfold decode_int. rewrite read_exact_app by apply encode_le_length.
  rewrite decode_le_roundtrip by assumption. reflexivity.
Qed.

Lemma decode_int_prefix w x n : (n < w)%nat -> decode_int w (firstn n (encode_le w x)) = None.
Proof.
  intros H. unfold decode_int. rewrite read_exact_short; [reflexivity|].
  rewrite firstn_length, encode_le_length. lia.
Qed.

(* error outcomes on input no encoder produces; so are [decode_string_invalid], [read_header_bad_magic],
   [deserialize_checksum_first], [deserialize_out_of_range].  Nothing cites them. *)
Lemma decode_bool_garbage x r : 1 < x -> decode_bool (x :: r) = None.
Proof. intros H. unfold decode_bool. destruct x as [|[p|p|]]; try reflexivity; lia. Qed.

Lemma decode_vec_roundtrip v r :
  N.of_nat (length v) < 256 ^ N.of_nat 8 -> decode_vec (encode_vec v ++ r) = Some (v, r).
Proof.
  intros H. unfold decode_vec, encode_vec. rewrite <- app_assoc.
  rewrite decode_int_roundtrip by assumption. rewrite Nat2N.id. apply read_exact_app. reflexivity.
Qed.

Lemma decode_vec_prefix v n :
  N.of_nat (length v) < 256 ^ N.of_nat 8 -> (n < length (encode_vec v))%nat ->
  decode_vec (firstn n (encode_vec v)) = None.
Proof.
  intros Hv Hn. unfold decode_vec, encode_vec in *. rewrite app_length, encode_le_length in Hn.
  destruct (Nat.lt_ge_cases n 8) as [Hlt|Hge].
  - unfold decode_int. rewrite read_exact_short; [reflexivity|].
    rewrite firstn_length, app_length, encode_le_length. lia.
  - (* the length is read in full, the bytes behind it are fewer than it says *)
    rewrite firstn_app, encode_le_length, firstn_all2 by (rewrite encode_le_length; lia).
    rewrite decode_int_roundtrip by assumption.
    apply read_exact_short. rewrite firstn_length. lia.
Qed.

Section Utf8.
  Variable utf8_valid : bytes -> bool.
  Lemma decode_string_vec s r :
    N.of_nat (length s) < 256 ^ N.of_nat 8 ->
    decode_string utf8_valid (encode_vec s ++ r) = if utf8_valid s then Some (s, r) else None.
  Proof. intros Hl. unfold decode_string. rewrite decode_vec_roundtrip by assumption. reflexivity. Qed.

  Lemma decode_string_invalid s r :
    utf8_valid s = false -> N.of_nat (length s) < 256 ^ N.of_nat 8 ->
    decode_string utf8_valid (encode_vec s ++ r) = None.
  Proof. intros Hu Hl. rewrite decode_string_vec, Hu by assumption. reflexivity. Qed.
End Utf8.

Definition header_ok (h : header) : Prop :=
  h_key_len h < 256 ^ 4 /\ h_value_len h < 256 ^ 4 /\ h_hash h < 256 ^ 8 /\ h_seq h < 256 ^ 8 /\
  h_checksum h < 256 ^ 8 /\ h_comp h <= 2.

Lemma write_header_length h : length (write_header h) = HEADER_LEN.
Proof. unfold write_header. rewrite !app_length, !encode_be_length. reflexivity. Qed.

(* the last header word: the magic's low byte is 0 and carries the compression tag *)
Lemma magic_tag c : c < 256 ->
  (ENTRY_MAGIC + c) / 256 = ENTRY_MAGIC / 256 /\ (ENTRY_MAGIC + c) mod 256 = c.
Proof.
  intros H. change ENTRY_MAGIC with (9896743 * 256) at 1 3. rewrite N.add_comm.
  rewrite N.div_add, N.mod_add, N.div_small, N.mod_small by (assumption || discriminate). split; reflexivity.
Qed.

Lemma header_roundtrip h r : header_ok h -> read_header (write_header h ++ r) = inl h.
Proof.
  intros (H1 & H2 & H3 & H4 & H5 & H6). unfold read_header, write_header.
  rewrite <- !app_assoc, !read_exact_app by apply encode_be_length.
  destruct (magic_tag (h_comp h)) as [Hd Hm]; [lia|].
  rewrite !decode_be_roundtrip by (assumption || (unfold ENTRY_MAGIC; change (256 ^ N.of_nat 4) with 4294967296; lia)).
  rewrite Hd, Hm, N.eqb_refl, (proj2 (N.ltb_ge _ _)) by assumption. destruct h; reflexivity.
Qed.

Lemma read_header_bad_magic (b1 b2 b3 b4 b5 b6 : bytes) r :
  length b1 = 4%nat -> length b2 = 4%nat -> length b3 = 8%nat -> length b4 = 8%nat -> length b5 = 8%nat ->
  length b6 = 4%nat -> decode_be b6 / 256 <> ENTRY_MAGIC / 256 ->
  read_header (b1 ++ b2 ++ b3 ++ b4 ++ b5 ++ b6 ++ r) = inr HMagic.
Proof.
  intros L1 L2 L3 L4 L5 L6 Hm. unfold read_header. rewrite !read_exact_app by assumption.
  apply N.eqb_neq in Hm. rewrite Hm. reflexivity.
Qed.

Lemma read_header_sound raw h :
  read_header raw = inl h ->
  (HEADER_LEN <= length raw)%nat /\ h_comp h <= 2 /\
  decode_be (firstn 4 (skipn 32 raw)) / 256 = ENTRY_MAGIC / 256.
Proof.
  unfold read_header.
  destruct (read_exact 4 raw) as [[b1 r1]|] eqn:E1; [|discriminate].
  destruct (read_exact 4 r1) as [[b2 r2]|] eqn:E2; [|discriminate].
  destruct (read_exact 8 r2) as [[b3 r3]|] eqn:E3; [|discriminate].
  destruct (read_exact 8 r3) as [[b4 r4]|] eqn:E4; [|discriminate].
  destruct (read_exact 8 r4) as [[b5 r5]|] eqn:E5; [|discriminate].
  destruct (read_exact 4 r5) as [[b6 r6]|] eqn:E6; [|discriminate].
  apply read_exact_inv in E1 as [-> L1], E2 as [-> L2], E3 as [-> L3], E4 as [-> L4], E5 as [-> L5], E6 as [-> L6].
  destruct (N.eqb_spec (decode_be b6 / 256) (ENTRY_MAGIC / 256)) as [M|]; [|discriminate].
  destruct (N.ltb_spec 2 (decode_be b6 mod 256)) as [|T]; intros [= <-].
  change 32%nat with (4 + (4 + (8 + (8 + 8))))%nat.
  rewrite !skipn_app_more, skipn_app_exact, firstn_app_exact, !app_length by assumption.
  unfold HEADER_LEN. split; [lia|]. split; assumption.
Qed.

Section Entry.
  Variable cksum : bytes -> N.
  Variable compress : N -> bytes -> bytes.
  Variable decompress : N -> bytes -> option bytes.

  Lemma deserialize_inv buffer kl vl comp c kenc venc :
    deserialize cksum decompress buffer kl vl comp (Some c) = inl (kenc, venc) ->
    (N.to_nat vl + N.to_nat kl <= length buffer)%nat /\
    c = cksum (firstn (N.to_nat vl + N.to_nat kl) buffer) /\
    decompress comp (firstn (N.to_nat vl) buffer) = Some venc /\
    kenc = firstn (N.to_nat kl) (skipn (N.to_nat vl) buffer).
  Proof.
    unfold deserialize. destruct (Nat.ltb_spec (length buffer) (N.to_nat vl + N.to_nat kl)); [discriminate|].
    destruct (N.eqb_spec c (cksum (firstn (N.to_nat vl + N.to_nat kl) buffer))); [|discriminate].
    destruct (decompress comp (firstn (N.to_nat vl) buffer)); intros [= <- <-]. auto.
  Qed.

  Lemma deserialize_sound buffer kl vl comp c kenc venc :
    deserialize cksum decompress buffer kl vl comp (Some c) = inl (kenc, venc) ->
    c = cksum (firstn (N.to_nat vl + N.to_nat kl) buffer) /\
    decompress comp (firstn (N.to_nat vl) buffer) = Some venc /\
    kenc = firstn (N.to_nat kl) (skipn (N.to_nat vl) buffer).
  Proof. intros H%deserialize_inv. exact (proj2 H). Qed.

  Lemma deserialize_checksum_first buffer kl vl comp c :
    (N.to_nat vl + N.to_nat kl <= length buffer)%nat ->
    c <> cksum (firstn (N.to_nat vl + N.to_nat kl) buffer) ->
    deserialize cksum decompress buffer kl vl comp (Some c) = inr DChecksum.
  Proof.
    intros Hl Hc. unfold deserialize.
    destruct (Nat.ltb_spec (length buffer) (N.to_nat vl + N.to_nat kl)); [lia|].
    apply N.eqb_neq in Hc. rewrite Hc. reflexivity.
  Qed.

  Lemma deserialize_out_of_range buffer kl vl comp c :
    (length buffer < N.to_nat vl + N.to_nat kl)%nat ->
    deserialize cksum decompress buffer kl vl comp c = inr DOutOfRange.
  Proof.
    intros Hl. unfold deserialize.
    destruct (Nat.ltb_spec (length buffer) (N.to_nat vl + N.to_nat kl)); [reflexivity|lia].
  Qed.

  (* the compressor round-trips (zstd / lz4; identity for None): the one assumption about them *)
  Hypothesis codec_ok : forall c x, decompress c (compress c x) = Some x.

  Lemma serialize_roundtrip comp kenc venc cap payload kl vl pad :
    serialize compress comp kenc venc cap = Some (payload, kl, vl) ->
    length payload = (N.to_nat vl + N.to_nat kl)%nat /\ (length payload <= cap)%nat /\
    deserialize cksum decompress (payload ++ pad) kl vl comp (Some (cksum payload)) = inl (kenc, venc).
  Proof.
    unfold serialize. destruct (Nat.leb_spec (length (compress comp venc ++ kenc)) cap) as [Hle|]; intros [= <- <- <-].
    rewrite !Nat2N.id.
    split; [apply app_length|]. split; [assumption|].
    unfold deserialize. rewrite !Nat2N.id, <- app_length.
    rewrite (proj2 (Nat.ltb_ge _ _)) by (rewrite (app_length _ pad); lia).
    rewrite firstn_app_exact, N.eqb_refl by reflexivity. cbn [negb].
    rewrite <- app_assoc, firstn_app_exact, skipn_app_exact, firstn_app_exact, codec_ok by reflexivity.
    reflexivity.
  Qed.
End Entry.
